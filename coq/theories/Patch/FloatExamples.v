(* Patch/FloatExamples.v — float32 and float64 test values for the comparison of a float32 field with a
   float64 threshold (C13_float32_field_vs_float64_threshold in Props/C13.v; the harness compares the
   same pairs, and thousands more, with the Go code), and one condition patch on them. *)
From Coq Require Import Floats.SpecFloat.
From HV Require Import Base.Prelude Patch.Msgpack Patch.Path Patch.Float Patch.Ops Patch.Cond.
Local Open Scope N_scope.

Definition f32_0_1 : bytes := [202; 61; 204; 204; 205].                        (* float32 0.1 *)
Definition f64_0_1 : bytes := [203; 63; 185; 153; 153; 153; 153; 153; 154].    (* float64 0.1 *)
Definition f32_1 : bytes := [202; 63; 128; 0; 0].                              (* float32 1 *)
Definition f64_1_eps : bytes := [203; 63; 240; 0; 0; 0; 0; 0; 1].              (* float64 1 + 2^-52 *)
Definition f32_max : bytes := [202; 127; 127; 255; 255].                       (* float32 max *)
Definition f64_1e300 : bytes := [203; 126; 55; 225; 67; 197; 201; 46; 203].    (* about 1e300 *)
Definition f64_of_f32_0_1 : bytes := [203; 63; 185; 153; 153; 160; 0; 0; 0].   (* float64(float32 0.1) *)

(* EQUAL against the float64 literal 0.1 is NOT met on a float32 0.1 field, GREATER_THAN is *)
Example float32_condition_patch :
  let body := [129; 161; 102] ++ f32_0_1 in
  apply_with_cond cfg_fixed body [] (Some {| cond_path := [102]; cond_op := 0; cond_threshold := f64_0_1 |}) = Err ECondNotMet /\
  apply_with_cond cfg_fixed body [] (Some {| cond_path := [102]; cond_op := 2; cond_threshold := f64_0_1 |}) = Ok body.
Proof. vm_compute. split; reflexivity. Qed.
