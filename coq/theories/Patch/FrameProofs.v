(* Patch/FrameProofs.v — untouched leaves keep their exact bytes and their relative order.
   [leaves s] is the sequence of leaf byte strings of a skeleton in document order.  For every
   operation: the leaves of the result are the leaves of the input with only the segment that
   belongs to the addressed target (empty if the target does not exist) replaced. *)
From HV Require Import Base.Prelude Patch.Msgpack Patch.Path Patch.Ops Patch.OpsProofs.
Local Open Scope N_scope.

Fixpoint leaves (s : skel) : list bytes :=
  match s with
  | SLeaf raw => [raw]
  | SMap fs => (fix go (l : list (bytes * skel)) : list bytes :=
                  match l with [] => [] | (_, v) :: t => leaves v ++ go t end) fs
  | SArr xs => (fix go (l : list skel) : list bytes :=
                  match l with [] => [] | v :: t => leaves v ++ go t end) xs
  end.

(* lf, la: the leaves of a list of fields, of array items *)
Definition lf (fs : fields) : list bytes := leaves (SMap fs).
Definition la (xs : list skel) : list bytes := leaves (SArr xs).

Lemma lf_cons : forall k v t, lf ((k, v) :: t) = leaves v ++ lf t.
Proof. reflexivity. Qed.
Lemma la_cons : forall v t, la (v :: t) = leaves v ++ la t.
Proof. reflexivity. Qed.

Lemma lf_app : forall a b, lf (a ++ b) = lf a ++ lf b.
Proof.
  induction a as [|[k v] t IH]; intro b; [reflexivity|].
  change (((k, v) :: t) ++ b) with ((k, v) :: (t ++ b)). rewrite !lf_cons, IH, app_assoc. reflexivity.
Qed.
Lemma la_app : forall a b, la (a ++ b) = la a ++ la b.
Proof.
  induction a as [|v t IH]; intro b; [reflexivity|].
  change ((v :: t) ++ b) with (v :: (t ++ b)). rewrite !la_cons, IH, app_assoc. reflexivity.
Qed.

(* the leaves of the addressed target; [] when it does not exist (missing field, append marker) *)
Definition target_leaves (segs : list seg) (s : skel) : list bytes :=
  match resolve segs s with Ok (Some t) => leaves t | _ => [] end.

Record handlers_frame (h : handlers) : Prop := {
  hf_missing : forall fs name rest fs', h_missing h fs name rest = Ok fs' -> exists new, lf fs' = lf fs ++ new;
  hf_field : forall b name v a fs', h_field h b name v a = Ok fs' -> exists new, lf fs' = lf b ++ new ++ lf a;
  hf_index : forall b v a xs', h_index h b v a = Ok xs' -> exists new, la xs' = la b ++ new ++ la a;
  hf_append : forall xs xs', h_append h xs = Ok xs' -> exists new, la xs' = new ++ la xs \/ la xs' = la xs ++ new
}.

Lemma walk_frame : forall h, handlers_frame h -> forall segs s s',
  walk h segs s = Ok s' ->
  exists l1 new l2, leaves s = l1 ++ target_leaves segs s ++ l2 /\ leaves s' = l1 ++ new ++ l2.
Proof.
  intros h Hh segs. induction segs as [|sg rest IH]; intros s s' H; [discriminate|].
  cbn [walk] in H. unfold target_leaves. cbn [resolve].
  destruct sg as [name|i|].
  - destruct s as [raw|fs|xs]; try discriminate. fold (lf fs).
    destruct (split_field name fs) as [[[b v] a]|] eqn:S.
    + apply split_field_app in S as [k [-> _]]. rewrite lf_app, lf_cons.
      destruct rest as [|sg2 rest2]; apply bind_Ok in H as [x [E [= <-]]].
      * destruct (hf_field h Hh _ _ _ _ _ E) as [new Hn]. exists (lf b), new, (lf a). split; [reflexivity|exact Hn].
      * destruct (IH _ _ E) as [l1 [new [l2 [E1 E2]]]]. exists (lf b ++ l1), new, (l2 ++ lf a).
        fold (lf (b ++ (name, x) :: a)). fold (target_leaves (sg2 :: rest2) v).
        rewrite lf_app, lf_cons, E1, E2, <- !app_assoc. split; reflexivity.
    + apply bind_Ok in H as [fs' [E [= <-]]]. destruct (hf_missing h Hh _ _ _ _ E) as [new Hn].
      exists (lf fs), new, []. rewrite !app_nil_r. split; [reflexivity|exact Hn].
  - destruct s as [raw|fs|xs]; try discriminate. fold (la xs).
    destruct (resolve_index i (length xs)) as [idx|]; [|discriminate].
    destruct (split_nth idx xs) as [[[b v] a]|] eqn:S; [|discriminate].
    apply split_nth_app in S as ->. rewrite la_app, la_cons.
    destruct rest as [|sg2 rest2]; apply bind_Ok in H as [x [E [= <-]]].
    + destruct (hf_index h Hh _ _ _ _ E) as [new Hn]. exists (la b), new, (la a). split; [reflexivity|exact Hn].
    + destruct (IH _ _ E) as [l1 [new [l2 [E1 E2]]]]. exists (la b ++ l1), new, (l2 ++ la a).
      fold (la (b ++ x :: a)). fold (target_leaves (sg2 :: rest2) v).
      rewrite la_app, la_cons, E1, E2, <- !app_assoc. split; reflexivity.
  - destruct rest; [|discriminate]. destruct s as [raw|fs|xs]; try discriminate. fold (la xs).
    apply bind_Ok in H as [xs' [E [= <-]]]. destruct (hf_append h Hh _ _ E) as [new [Hn|Hn]].
    + exists [], new, (la xs). split; [reflexivity|exact Hn].
    + exists (la xs), new, []. rewrite !app_nil_r. split; [reflexivity|exact Hn].
Qed.

Lemma create_fields_frame : forall fs name rest v fs',
  create_fields fs name rest v = Ok fs' -> exists new, lf fs' = lf fs ++ new.
Proof.
  unfold create_fields. intros fs name rest v fs' H. destruct (field_names rest); [|discriminate].
  injection H as <-. eexists. apply lf_app.
Qed.

Lemma update_field_frame : forall (g : skel -> res skel) b name t a fs',
  (t' <- g t ;; Ok (b ++ (name, t') :: a)) = Ok fs' -> exists new, lf fs' = lf b ++ new ++ lf a.
Proof. intros g b name t a fs' H. apply bind_Ok in H as [t' [_ [= <-]]]. eexists. rewrite lf_app, lf_cons. reflexivity. Qed.

Lemma update_item_frame : forall (g : skel -> res skel) b t a xs',
  (t' <- g t ;; Ok (b ++ t' :: a)) = Ok xs' -> exists new, la xs' = la b ++ new ++ la a.
Proof. intros g b t a xs' H. apply bind_Ok in H as [t' [_ [= <-]]]. eexists. rewrite la_app, la_cons. reflexivity. Qed.

Lemma h_set_frame : forall v, handlers_frame (h_set v).
Proof.
  intro v. constructor; cbn.
  - intros fs name rest. apply create_fields_frame.
  - exact (update_field_frame (fun _ => Ok (SLeaf v))).
  - exact (update_item_frame (fun _ => Ok (SLeaf v))).
  - discriminate.
Qed.

Lemma h_delete_frame : handlers_frame h_delete.
Proof.
  constructor; cbn.
  - intros fs name rest fs' [= <-]. exists []. symmetry. apply app_nil_r.
  - intros b name t a fs' [= <-]. exists []. apply lf_app.
  - intros b t a xs' [= <-]. exists []. apply la_app.
  - intros xs xs' [= <-]. exists []. left. reflexivity.
Qed.

Lemma h_remove_at_frame : handlers_frame h_remove_at.
Proof.
  constructor; [discriminate|exact (hf_field _ h_delete_frame)|exact (hf_index _ h_delete_frame)|discriminate].
Qed.

Lemma h_inc_frame : forall v d, handlers_frame (h_inc v d).
Proof.
  intros v d. constructor.
  - exact (hf_missing _ (h_set_frame v)).
  - exact (update_field_frame (fun t => inc_target t d)).
  - exact (update_item_frame (fun t => inc_target t d)).
  - discriminate.
Qed.

Lemma h_append_frame : forall v p, handlers_frame (h_append_op v p).
Proof.
  intros v p. constructor; cbn; try discriminate.
  - intros fs name rest fs' H. unfold create_array in H.
    destruct (rev rest) as [|[| |] ri]; try discriminate.
    destruct (field_names (rev ri)); [|discriminate]. injection H as <-. eexists. apply lf_app.
  - intros xs xs' [= <-]. exists [v]. destruct p; [left; reflexivity|right; apply la_app].
Qed.

Lemma h_remove_val_frame : forall v, handlers_frame (h_remove_val v).
Proof.
  intro v. constructor.
  - exact (hf_missing _ h_delete_frame).
  - exact (update_field_frame (remove_val_target v)).
  - exact (update_item_frame (remove_val_target v)).
  - exact (hf_append _ h_delete_frame).
Qed.

Lemma h_merge_frame : forall pfs, handlers_frame (h_merge pfs).
Proof.
  intro pfs. constructor; cbn.
  - intros fs name rest. apply create_fields_frame.
  - exact (update_field_frame (merge_target pfs)).
  - exact (update_item_frame (merge_target pfs)).
  - discriminate.
Qed.

Theorem untouched_bytes_preserved : forall c s o segs s',
  apply_op c s o segs = Ok s' ->
  exists l1 new l2, leaves s = l1 ++ target_leaves segs s ++ l2 /\ leaves s' = l1 ++ new ++ l2.
Proof.
  intros c s o segs s' H. apply apply_op_walk in H as [h [Hh W]]. refine (walk_frame h _ _ _ _ W).
  destruct Hh.
  - apply h_set_frame.
  - apply h_delete_frame.
  - apply h_inc_frame.
  - apply h_append_frame.
  - apply h_remove_at_frame.
  - apply h_remove_val_frame.
  - apply h_merge_frame.
Qed.

(* replacing the value stored under a key k other than name does not change which value
   [split_field name] finds (the fields before and after it do change); a fact about [split_field]
   that the theorems above do not use *)
Lemma split_field_put_other : forall name k (b : fields) x y a,
  bytes_eqb k name = false ->
  option_map (fun t => snd (fst t)) (split_field name (b ++ (k, y) :: a)) =
  option_map (fun t => snd (fst t)) (split_field name (b ++ (k, x) :: a)).
Proof.
  intros name k b x y a Hk. induction b as [|[k0 v0] t IH]; simpl.
  - rewrite Hk. destruct (split_field name a) as [[[? ?] ?]|]; reflexivity.
  - destruct (bytes_eqb k0 name); [reflexivity|].
    destruct (split_field name (t ++ (k, y) :: a)) as [[[? ?] ?]|];
    destruct (split_field name (t ++ (k, x) :: a)) as [[[? ?] ?]|]; simpl in *; congruence.
Qed.

(* example: SET of one field leaves every other leaf byte-identical, in order *)
Example untouched_example :
  exists s s', parse ex_body = Ok s /\ apply_op cfg_fixed s (ex_set [120] [192]) [SegField [120]] = Ok s' /\
    leaves s = [[1]; [208; 127]] /\ leaves s' = [[192]; [208; 127]] /\ target_leaves [SegField [120]] s = [[1]].
Proof.
  eexists. eexists. split; [vm_compute; reflexivity|]. split; [vm_compute; reflexivity|].
  repeat split; vm_compute; reflexivity.
Qed.
