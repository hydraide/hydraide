(* The byte-level msgpack model: its lead-byte classifiers equal the table printed from the compiled
   Go code (all 256 bytes); [WF] is the msgpack grammar, Decoder.Skip is sound for it, and what the
   encoder writes and the leaves the parser returns are [WF]. *)
From Coq Require Import ZifyN ZifyNat ZifyBool.
From HV Require Import Base.Prelude Patch.Msgpack Gen.C13Consts.
Local Open Scope N_scope.

Definition flags_of (c : N) : N :=
  (if is_map_code c then 1 else 0) + (if is_array_code c then 2 else 0) +
  (if is_string_code c then 4 else 0) + (if is_integer_code c then 8 else 0) +
  (if is_float_code c then 16 else 0).

(* 1 + number of bytes Decoder.Skip consumes on c followed by c13_pad bytes k; 0 if it fails *)
Definition probe (c k : N) : N :=
  match skip (S (S c13_pad)) (c :: repeat k c13_pad) with
  | Some r => 1 + (N.of_nat (S c13_pad) - N.of_nat (length r))
  | None => 0
  end.

Definition entry (c : N) : N * N * N * N := (flags_of c, num_class c, probe c 0, probe c 1).
Definition all_bytes : list N := map N.of_nat (seq 0 256).

Lemma lead_table_eq : map entry all_bytes = c13_lead_table.
Proof. vm_compute. reflexivity. Qed.

Lemma all_bytes_nth : forall c, c < 256 -> nth_error all_bytes (N.to_nat c) = Some c.
Proof.
  intros c Hc. unfold all_bytes. rewrite <- (N2Nat.id c) at 2. apply map_nth_error.
  rewrite nth_error_nth' with (d := O) by (rewrite seq_length; lia). rewrite seq_nth by lia. reflexivity.
Qed.

(* the literals 0..7 matched in [apply_op] and [cond_met] are the Go constants *)
Lemma op_numbering : c13_op_kinds = [0; 1; 2; 3; 4; 5; 6; 7] /\ c13_cond_ops = [0; 1; 2; 3; 4; 5; 6; 7].
Proof. split; vm_compute; reflexivity. Qed.

Definition hdr_ok (w : nat) (c : N) (hdr : bytes) (n : N) : Prop :=
  length hdr = w /\ match w with O => N.land c 15 | _ => be_val 0 hdr end = n.

Definition scalar_shape (c : N) : Prop :=
  match lead_shape c with ShFixed _ | ShLen _ _ => True | _ => False end.

Inductive WF : bytes -> Prop :=
| WF_scalar : forall c p, scalar_shape c -> leaf_extent c p = Some (length p) -> WF (c :: p)
| WF_arr : forall c w hdr items, lead_shape c = ShArr w ->
    hdr_ok w c hdr (N.of_nat (length items)) -> Forall WF items -> WF (c :: hdr ++ concat items)
| WF_map : forall c w hdr n items, lead_shape c = ShMap w ->
    hdr_ok w c hdr n -> length items = (2 * N.to_nat n)%nat -> Forall WF items ->
    WF (c :: hdr ++ concat items).

Lemma take_split : forall n l h r, take n l = Some (h, r) -> l = h ++ r /\ length h = n.
Proof.
  unfold take. intros n l h r H. destruct (Nat.leb_spec n (length l)); [|discriminate].
  injection H as <- <-. split; [symmetry; apply firstn_skipn|apply firstn_length_le; assumption].
Qed.

Lemma take_all : forall l, take (length l) l = Some (l, []).
Proof. intro l. unfold take. rewrite Nat.leb_refl, firstn_all, skipn_all. reflexivity. Qed.

Lemma read_count_split : forall w c r0 n r', read_count w c r0 = Some (n, r') ->
  exists hdr, r0 = hdr ++ r' /\ hdr_ok w c hdr n.
Proof.
  intros w c r0 n r' H. destruct w as [|w'].
  - injection H as <- <-. exists []. repeat split.
  - unfold read_count, read_be in H. destruct (take (S w') r0) as [[h r]|] eqn:T; [|discriminate].
    injection H as <- <-. apply take_split in T as [E L]. exists h. repeat split; assumption.
Qed.

Lemma leaf_extent_spec : forall c r k, leaf_extent c r = Some k <->
  (k <= length r)%nat /\
  match lead_shape c with
  | ShFixed k0 => k = k0
  | ShLen w extra => k = (w + (N.to_nat (be_val 0 (firstn w r)) + extra))%nat
  | _ => False
  end.
Proof.
  intros c r k. unfold leaf_extent, read_be, take. destruct (lead_shape c) as [k0|w extra|w|w|].
  3-5: split; [discriminate|tauto].   (* ShArr, ShMap, ShBad: no extent *)
  - destruct (Nat.leb_spec k0 (length r)); split; try discriminate; try lia.
    + intros [= <-]. auto.
    + intros [_ ->]. reflexivity.
  - destruct (Nat.leb_spec w (length r)); [|split; [discriminate|lia]].
    rewrite skipn_length.
    destruct (N.leb_spec (be_val 0 (firstn w r) + N.of_nat extra) (N.of_nat (length r - w))); split;
      try discriminate; try lia.
    + intros [= <-]. lia.
    + intros [_ ->]. reflexivity.
Qed.

Lemma leaf_extent_le : forall c r k, leaf_extent c r = Some k -> (k <= length r)%nat.
Proof. intros c r k H. apply leaf_extent_spec in H. apply H. Qed.

Lemma leaf_extent_firstn : forall c r k, leaf_extent c r = Some k ->
  leaf_extent c (firstn k r) = Some (length (firstn k r)).
Proof.
  intros c r k H. apply leaf_extent_spec in H as [Hle Hs]. apply leaf_extent_spec.
  rewrite firstn_length_le by exact Hle. split; [reflexivity|].
  destruct (lead_shape c); try exact Hs. rewrite firstn_firstn, Nat.min_l by lia. exact Hs.
Qed.

Lemma leaf_extent_WF : forall c r k, leaf_extent c r = Some k -> WF (c :: firstn k r).
Proof.
  intros c r k H. apply WF_scalar; [|apply leaf_extent_firstn; exact H].
  apply leaf_extent_spec in H as [_ Hs]. unfold scalar_shape. destruct (lead_shape c); tauto.
Qed.

Lemma WF_fixed : forall c p, lead_shape c = ShFixed (length p) -> WF (c :: p).
Proof.
  intros c p H. apply WF_scalar; [unfold scalar_shape; rewrite H; exact I|].
  apply leaf_extent_spec. rewrite H. split; reflexivity.
Qed.

Lemma iter_sound : forall (sk : bytes -> option bytes),
  (forall b r, sk b = Some r -> exists v, b = v ++ r /\ WF v) ->
  forall k b r, iter_opt sk k b = Some r ->
  exists items, b = concat items ++ r /\ Forall WF items /\ length items = k.
Proof.
  intros sk Hsk k. induction k as [|k IH]; intros b r H; simpl in H.
  - injection H as <-. exists []. repeat split; constructor.
  - destruct (sk b) as [r1|] eqn:E; [|discriminate].
    apply Hsk in E as [v [-> Wv]]. apply IH in H as [items [-> [Fi <-]]].
    exists (v :: items). split; [apply app_assoc|]. split; [constructor; assumption|reflexivity].
Qed.

Lemma clamp_le : forall n r, n <= N.of_nat (length r) -> clamp n r = N.to_nat n.
Proof. intros n r H. unfold clamp. f_equal. lia. Qed.

(* the common part of the array and map branches of [skip]; k n r' is the number of values read *)
Lemma container_sound : forall (sk : bytes -> option bytes) (k : N -> bytes -> nat),
  (forall b r, sk b = Some r -> exists v, b = v ++ r /\ WF v) ->
  forall w c r0 r,
  match read_count w c r0 with
  | Some (n, r') => match iter_opt sk (k n r') r' with
                    | Some rest => if n <=? N.of_nat (length r') then Some rest else None
                    | None => None
                    end
  | None => None
  end = Some r ->
  exists n r' hdr items, n <= N.of_nat (length r') /\ r0 = hdr ++ concat items ++ r /\
    hdr_ok w c hdr n /\ Forall WF items /\ length items = k n r'.
Proof.
  intros sk k Hsk w c r0 r H.
  destruct (read_count w c r0) as [[n r']|] eqn:RC; [|discriminate].
  destruct (iter_opt sk (k n r') r') as [rest|] eqn:IT; [|discriminate].
  destruct (N.leb_spec n (N.of_nat (length r'))) as [B|]; [|discriminate]. injection H as ->.
  apply read_count_split in RC as [hdr [-> HO]]. apply (iter_sound _ Hsk) in IT as [items [-> [Fi Li]]].
  exists n, (concat items ++ r), hdr, items. split; [exact B|]. split; [reflexivity|]. split; [exact HO|].
  split; [exact Fi|exact Li].
Qed.

Lemma skip_sound : forall f b r, skip f b = Some r -> exists v, b = v ++ r /\ WF v.
Proof.
  induction f as [|f IH]; intros b r H; [discriminate|].
  cbn [skip] in H. destruct b as [|c r0]; [discriminate|].
  assert (LEAF : forall k, leaf_extent c r0 = Some k -> exists v, c :: r0 = v ++ skipn k r0 /\ WF v).
  { intros k L. exists (c :: firstn k r0). split; [cbn; rewrite firstn_skipn; reflexivity|exact (leaf_extent_WF _ _ _ L)]. }
  destruct (lead_shape c) as [k0|w ex0|w|w|] eqn:Hs.
  - destruct (leaf_extent c r0) as [k|]; [|discriminate]. injection H as <-. apply LEAF. reflexivity.
  - destruct (leaf_extent c r0) as [k|]; [|discriminate]. injection H as <-. apply LEAF. reflexivity.
  - destruct (container_sound _ (fun n r' => clamp n r') IH _ _ _ _ H) as [n [r' [hdr [items [B [-> [HO [Fi Li]]]]]]]].
    exists (c :: hdr ++ concat items). split; [cbn; rewrite app_assoc; reflexivity|].
    apply (WF_arr c w hdr items Hs); [|exact Fi].
    rewrite clamp_le in Li by exact B. rewrite <- (N2Nat.id n), <- Li in HO. exact HO.
  - destruct (container_sound _ (fun n r' => (2 * clamp n r')%nat) IH _ _ _ _ H) as [n [r' [hdr [items [B [-> [HO [Fi Li]]]]]]]].
    exists (c :: hdr ++ concat items). split; [cbn; rewrite app_assoc; reflexivity|].
    rewrite clamp_le in Li by exact B. exact (WF_map c w hdr n items Hs HO Li Fi).
  - discriminate.
Qed.

Lemma valid_value_WF : forall v, valid_value v = true -> WF v.
Proof.
  unfold valid_value. intros v H. destruct (skip (S (length v)) v) as [[|x t]|] eqn:E; try discriminate.
  apply skip_sound in E as [w [-> Ww]]. rewrite app_nil_r. exact Ww.
Qed.

Lemma be_val_acc : forall l acc, be_val acc l = acc * 256 ^ N.of_nat (length l) + be_val 0 l.
Proof.
  induction l as [|x t IH]; intro acc; cbn [be_val length].
  - change (N.of_nat 0) with 0. rewrite N.pow_0_r. ring.
  - rewrite (IH (acc * 256 + x)), (IH (0 * 256 + x)), Nat2N.inj_succ, N.pow_succ_r'. ring.
Qed.

Lemma be_val_app : forall hi lo,
  be_val 0 (hi ++ lo) = be_val 0 hi * 256 ^ N.of_nat (length lo) + be_val 0 lo.
Proof.
  intros hi lo. rewrite <- be_val_acc. generalize 0.
  induction hi as [|x t IH]; intro acc; [reflexivity|apply IH].
Qed.

Lemma be_val_be2_mod : forall n, be_val 0 (be2 n) = n mod 65536.
Proof.
  intro n. unfold be2. cbn [be_val]. change 65536 with (256 * 256). rewrite N.mod_mul_r by discriminate. lia.
Qed.

Lemma be_val_be4_mod : forall n, be_val 0 (be4 n) = n mod 4294967296.
Proof.
  intro n. unfold be4. change 16777216 with (65536 * 256). rewrite <- N.div_div by discriminate.
  change (be_val 0 (be2 (n / 65536) ++ be2 n) = n mod (65536 * 65536)).
  rewrite be_val_app, !be_val_be2_mod, N.mod_mul_r by discriminate.
  change (256 ^ N.of_nat (length (be2 n))) with 65536. lia.
Qed.

Lemma be_val_be8_mod : forall n, be_val 0 (be8 n) = n mod 18446744073709551616.
Proof.
  intro n. unfold be8. change 18446744073709551616 with (4294967296 * 4294967296).
  rewrite be_val_app, !be_val_be4_mod, N.mod_mul_r by discriminate.
  change (256 ^ N.of_nat (length (be4 n))) with 4294967296. lia.
Qed.

Lemma be_val_1 : forall x, be_val 0 [x] = x.
Proof. reflexivity. Qed.

Lemma be_val_be2 : forall n, n <= 65535 -> be_val 0 (be2 n) = n.
Proof. intros n H. rewrite be_val_be2_mod. apply N.mod_small. lia. Qed.

Lemma be_val_be4 : forall n, n < 4294967296 -> be_val 0 (be4 n) = n.
Proof. intros n H. rewrite be_val_be4_mod. apply N.mod_small. exact H. Qed.

Lemma be_val_be8 : forall n, n < 18446744073709551616 -> be_val 0 (be8 n) = n.
Proof. intros n H. rewrite be_val_be8_mod. apply N.mod_small. exact H. Qed.

Lemma land_low : forall hi n k, n < 2 ^ k -> N.land (hi * 2 ^ k + n) (N.ones k) = n.
Proof.
  intros hi n k H. rewrite N.land_ones, N.add_comm, N.mod_add by (apply N.pow_nonzero; discriminate).
  apply N.mod_small. exact H.
Qed.

Lemma land15 : forall n, n < 16 -> N.land (128 + n) 15 = n /\ N.land (144 + n) 15 = n.
Proof. intros n H. split; [exact (land_low 8 n 4 H)|exact (land_low 9 n 4 H)]. Qed.

Lemma land31 : forall n, n < 32 -> N.land (160 + n) 31 = n.
Proof. intros n H. exact (land_low 5 n 5 H). Qed.

Lemma lead_shape_fix : forall c, 128 <= c -> c <= 191 ->
  lead_shape c = if c <=? 143 then ShMap 0 else if c <=? 159 then ShArr 0 else ShFixed (N.to_nat (N.land c 31)).
Proof.
  intros c L U. unfold lead_shape. rewrite (proj2 (N.leb_gt c 127)), (proj2 (N.leb_le c 191)) by lia. reflexivity.
Qed.

Lemma shape_fixmap : forall n, n < 16 -> lead_shape (128 + n) = ShMap 0.
Proof. intros n H. rewrite lead_shape_fix, (proj2 (N.leb_le _ 143)) by lia. reflexivity. Qed.

Lemma shape_fixarr : forall n, n < 16 -> lead_shape (144 + n) = ShArr 0.
Proof.
  intros n H. rewrite lead_shape_fix, (proj2 (N.leb_gt _ 143)), (proj2 (N.leb_le _ 159)) by lia. reflexivity.
Qed.

Lemma shape_fixstr : forall n, n < 32 -> lead_shape (160 + n) = ShFixed (N.to_nat n).
Proof.
  intros n H. rewrite lead_shape_fix, (proj2 (N.leb_gt _ 143)), (proj2 (N.leb_gt _ 159)), land31 by lia. reflexivity.
Qed.

(* sh is ShMap or ShArr, fx its fix code, c16 and c32 the codes with a 2- and a 4-byte count *)
Lemma count_header_ok : forall (sh : nat -> shape) fx c16 c32 n, n < 4294967296 ->
  (n < 16 -> lead_shape (fx + n) = sh O /\ N.land (fx + n) 15 = n) ->
  lead_shape c16 = sh 2%nat -> lead_shape c32 = sh 4%nat ->
  exists c w hdr, (if n <? 16 then [fx + n] else if n <=? 65535 then c16 :: be2 n else c32 :: be4 n) = c :: hdr /\
    lead_shape c = sh w /\ hdr_ok w c hdr n.
Proof.
  intros sh fx c16 c32 n H Hfx H16 H32. destruct (N.ltb_spec n 16) as [L|]; [|destruct (N.leb_spec n 65535)].
  - exists (fx + n), O, []. destruct (Hfx L) as [Hs Hl]. split; [reflexivity|]. split; [exact Hs|]. split; [reflexivity|exact Hl].
  - exists c16, 2%nat, (be2 n). repeat split; [exact H16|apply be_val_be2; assumption].
  - exists c32, 4%nat, (be4 n). repeat split; [exact H32|apply be_val_be4; assumption].
Qed.

Lemma map_header_ok : forall n, n < 4294967296 ->
  exists c w hdr, map_header n = c :: hdr /\ lead_shape c = ShMap w /\ hdr_ok w c hdr n.
Proof.
  intros n H. apply (count_header_ok ShMap 128 222 223); [exact H| |reflexivity|reflexivity].
  intro L. exact (conj (shape_fixmap n L) (proj1 (land15 n L))).
Qed.

Lemma arr_header_ok : forall n, n < 4294967296 ->
  exists c w hdr, arr_header n = c :: hdr /\ lead_shape c = ShArr w /\ hdr_ok w c hdr n.
Proof.
  intros n H. apply (count_header_ok ShArr 144 220 221); [exact H| |reflexivity|reflexivity].
  intro L. exact (conj (shape_fixarr n L) (proj2 (land15 n L))).
Qed.

(* what [parse_key] meets in front of an encoded key *)
Lemma enc_str_extent : forall k, N.of_nat (length k) < 4294967296 ->
  exists c p, enc_str k = c :: p /\ is_string_code c = true /\ scalar_shape c /\
    (forall rest, leaf_extent c (p ++ rest) = Some (length p)) /\
    skipn (match lead_shape c with ShLen w _ => w | _ => O end) p = k.
Proof.
  intros k H. unfold enc_str, str_header. set (n := N.of_nat (length k)) in *.
  assert (P : forall c w hdr, lead_shape c = ShLen w 0 -> length hdr = w -> be_val 0 hdr = n ->
              forall rest, leaf_extent c ((hdr ++ k) ++ rest) = Some (length (hdr ++ k))).
  { intros c w hdr Hs Hl Hv rest. apply leaf_extent_spec. rewrite Hs, !app_length. split; [lia|].
    rewrite <- app_assoc, <- Hl, firstn_len_app, Hv. lia. }
  destruct (N.ltb_spec n 32); [|destruct (N.ltb_spec n 256); [|destruct (N.leb_spec n 65535)]].
  - exists (160 + n), k. unfold scalar_shape. rewrite shape_fixstr by assumption.
    split; [reflexivity|]. split; [|split; [exact I|split; [|reflexivity]]].
    + unfold is_string_code, is_fixstr, in_range.
      replace (160 <=? 160 + n) with true by lia. replace (160 + n <=? 191) with true by lia. reflexivity.
    + intro rest. apply leaf_extent_spec. rewrite shape_fixstr, app_length by assumption. lia.
  - exists 217, ([n] ++ k). split; [reflexivity|]. split; [reflexivity|]. split; [exact I|]. split; [|reflexivity].
    apply (P 217 1%nat); reflexivity.
  - exists 218, (be2 n ++ k). split; [reflexivity|]. split; [reflexivity|]. split; [exact I|]. split; [|reflexivity].
    apply (P 218 2%nat); [reflexivity|reflexivity|apply be_val_be2; assumption].
  - exists 219, (be4 n ++ k). split; [reflexivity|]. split; [reflexivity|]. split; [exact I|]. split; [|reflexivity].
    apply (P 219 4%nat); [reflexivity|reflexivity|apply be_val_be4; assumption].
Qed.

Lemma enc_str_WF : forall k, N.of_nat (length k) < 4294967296 -> WF (enc_str k).
Proof.
  intros k H. destruct (enc_str_extent k H) as [c [p [E [_ [S [L _]]]]]]. rewrite E.
  apply WF_scalar; [exact S|]. specialize (L []). rewrite app_nil_r in L. exact L.
Qed.

Fixpoint skel_all (L K : bytes -> Prop) (C : nat -> Prop) (s : skel) : Prop :=
  match s with
  | SLeaf raw => L raw
  | SMap fs =>
      C (length fs) /\
      (fix go (l : list (bytes * skel)) : Prop :=
         match l with [] => True | (k, v) :: t => (K k /\ skel_all L K C v) /\ go t end) fs
  | SArr xs =>
      C (length xs) /\
      (fix go (l : list skel) : Prop := match l with [] => True | v :: t => skel_all L K C v /\ go t end) xs
  end.

Lemma skel_all_map : forall L K C fs,
  skel_all L K C (SMap fs) <-> C (length fs) /\ Forall (fun kv => K (fst kv) /\ skel_all L K C (snd kv)) fs.
Proof.
  intros L K C fs. simpl. apply and_iff_compat_l.
  induction fs as [|[k v] t IH]; [split; intro; constructor|]. rewrite Forall_cons_iff, <- IH. reflexivity.
Qed.

Lemma skel_all_arr : forall L K C xs,
  skel_all L K C (SArr xs) <-> C (length xs) /\ Forall (skel_all L K C) xs.
Proof.
  intros L K C xs. simpl. apply and_iff_compat_l.
  induction xs as [|v t IH]; [split; intro; constructor|]. rewrite Forall_cons_iff, <- IH. reflexivity.
Qed.

Definition ktrue (_ : bytes) : Prop := True.
Definition ctrue (_ : nat) : Prop := True.
Definition ksmall (k : bytes) : Prop := N.of_nat (length k) < 4294967296.
Definition csmall (n : nat) : Prop := N.of_nat n < 4294967296.

(* the invariant the operations maintain *)
Definition leaves_wf (s : skel) : Prop := skel_all WF ktrue ctrue s.
(* the uint32 truncation of lengths in EncodeString/EncodeMapLen/EncodeArrayLen is not reached *)
Definition small (s : skel) : Prop := skel_all (fun _ => True) ksmall csmall s.
Definition skel_ok (s : skel) : Prop := skel_all WF ksmall csmall s.

(* induction with [Forall] hypotheses for the nested lists, which the generated [skel_ind] lacks *)
Fixpoint skel_ind' (P : skel -> Prop)
  (Hl : forall raw, P (SLeaf raw))
  (Hm : forall fs, Forall (fun kv => P (snd kv)) fs -> P (SMap fs))
  (Ha : forall xs, Forall P xs -> P (SArr xs)) (s : skel) : P s :=
  match s with
  | SLeaf raw => Hl raw
  | SMap fs => Hm fs ((fix go (l : list (bytes * skel)) : Forall (fun kv => P (snd kv)) l :=
                         match l with
                         | [] => Forall_nil _
                         | kv :: t => Forall_cons kv (skel_ind' P Hl Hm Ha (snd kv)) (go t)
                         end) fs)
  | SArr xs => Ha xs ((fix go (l : list skel) : Forall P l :=
                         match l with
                         | [] => Forall_nil _
                         | v :: t => Forall_cons v (skel_ind' P Hl Hm Ha v) (go t)
                         end) xs)
  end.

Lemma skel_ok_intro : forall s, leaves_wf s -> small s -> skel_ok s.
Proof.
  unfold leaves_wf, small, skel_ok.
  induction s as [raw|fs IH|xs IH] using skel_ind'; intros H1 H2.
  - exact H1.
  - apply skel_all_map in H1 as [_ F1]. apply skel_all_map in H2 as [c2 F2]. apply skel_all_map.
    split; [exact c2|]. eapply Forall_impl; [|exact (Forall_and IH (Forall_and F1 F2))].
    cbv beta. intros kv [P [[_ s1] [k2 s2]]]. split; [exact k2|exact (P s1 s2)].
  - apply skel_all_arr in H1 as [_ F1]. apply skel_all_arr in H2 as [c2 F2]. apply skel_all_arr.
    split; [exact c2|]. eapply Forall_impl; [|exact (Forall_and IH (Forall_and F1 F2))].
    cbv beta. intros v [P [s1 s2]]. exact (P s1 s2).
Qed.

Lemma serialize_map : forall fs, serialize (SMap fs) =
  map_header (N.of_nat (length fs)) ++ concat (flat_map (fun kv => [enc_str (fst kv); serialize (snd kv)]) fs).
Proof.
  intro fs. simpl. f_equal. induction fs as [|[k v] t IH]; [reflexivity|]. simpl. rewrite IH. reflexivity.
Qed.

Lemma pairs_length : forall (A B : Type) (f g : A -> B) l,
  length (flat_map (fun x => [f x; g x]) l) = (2 * length l)%nat.
Proof. intros A B f g l. induction l as [|x t IH]; [reflexivity|]. simpl. rewrite IH. lia. Qed.

Lemma serialize_arr : forall xs, serialize (SArr xs) =
  arr_header (N.of_nat (length xs)) ++ concat (map serialize xs).
Proof.
  intro xs. simpl. f_equal. induction xs as [|v t IH]; [reflexivity|]. simpl. rewrite IH. reflexivity.
Qed.

Lemma serialize_WF : forall s, skel_ok s -> WF (serialize s).
Proof.
  unfold skel_ok.
  induction s as [raw|fs IH|xs IH] using skel_ind'; intro H.
  - exact H.
  - apply skel_all_map in H as [Hn Hf]. rewrite serialize_map.
    destruct (map_header_ok _ Hn) as [c [w [hdr [-> [Sh HO]]]]].
    apply (WF_map c w hdr _ _ Sh HO).
    + rewrite Nat2N.id. apply pairs_length.
    + apply Forall_flat_map. eapply Forall_impl; [|exact (Forall_and IH Hf)].
      cbv beta. intros kv [P [Hk Hv]]. constructor; [apply enc_str_WF; exact Hk|].
      constructor; [apply P; exact Hv|constructor].
  - apply skel_all_arr in H as [Hn Hf]. rewrite serialize_arr.
    destruct (arr_header_ok _ Hn) as [c [w [hdr [-> [Sh HO]]]]].
    apply (WF_arr c w hdr _ Sh).
    + rewrite map_length. exact HO.
    + apply Forall_map. eapply Forall_impl; [|exact (Forall_and IH Hf)]. cbv beta. intros v [P Hv]. apply P. exact Hv.
Qed.

Lemma parse_many_all : forall (A : Type) (p : bytes -> res (A * bytes)) (P : A -> Prop),
  (forall b x r, p b = Ok (x, r) -> P x) ->
  forall n b xs r, parse_many p n b = Ok (xs, r) -> Forall P xs.
Proof.
  intros A p P Hp n. induction n as [|n IH]; intros b xs r H; simpl in H.
  - inversion H; subst. constructor.
  - destruct (p b) as [[x r1]|e] eqn:E; [|discriminate].
    destruct (parse_many p n r1) as [[xs' r2]|e] eqn:E2; [|discriminate].
    inversion H; subst. constructor; [eapply Hp; exact E|eapply IH; exact E2].
Qed.

Lemma parse_node_leaves_wf : forall f b s r, parse_node f b = Ok (s, r) -> leaves_wf s.
Proof.
  unfold leaves_wf.
  induction f as [|f IH]; intros b s r H; [discriminate|].
  cbn [parse_node] in H. destruct b as [|c r0]; [discriminate|].
  destruct (lead_shape c) as [k0|w ex0|w|w|].
  (* ShFixed, ShLen, ShBad: a leaf *)
  1, 2, 5: destruct (leaf_extent c r0) as [k|] eqn:L; [|discriminate]; injection H as <- <-;
    exact (leaf_extent_WF _ _ _ L).
  all: destruct (read_count w c r0) as [[n r']|]; [|discriminate].
  all: destruct (parse_many _ (clamp n r') r') as [[xs rest]|e] eqn:PM; [|discriminate].
  all: destruct (n <=? N.of_nat (length r')); [|discriminate]; injection H as <- <-.
  - apply skel_all_arr. split; [exact I|].
    eapply parse_many_all; [|exact PM]. intros b0 x r1 E. eapply IH; exact E.
  - apply skel_all_map. split; [exact I|].
    eapply parse_many_all; [|exact PM]. intros b0 [k v] r1 E. unfold parse_field in E.
    destruct (parse_key b0) as [[k0 rk]|e]; [|discriminate].
    destruct (parse_node f rk) as [[v0 rv]|e] eqn:PN; [|discriminate].
    injection E as <- <- <-. split; [exact I|]. eapply IH; exact PN.
Qed.

Lemma parse_fixed : forall c p, lead_shape c = ShFixed (length p) -> parse (c :: p) = Ok (SLeaf (c :: p)).
Proof.
  intros c p H. unfold parse. cbn [parse_node length]. unfold leaf_extent. rewrite H, Nat.leb_refl, firstn_all, skipn_all.
  reflexivity.
Qed.
