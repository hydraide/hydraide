(* Patch/MergeProofs.v — MERGE never manufactures duplicate keys: whatever the merge value looks
   like (repeated keys, keys new to the target or not), merging into a map whose keys are
   pairwise distinct yields a map whose keys are pairwise distinct; every key of the target and
   every key of the value is present afterwards.  (Which value a repeated key ends up with is
   shown on two examples only.) *)
From HV Require Import Base.Prelude Patch.Msgpack Patch.Path Patch.Ops Patch.OpsProofs Patch.RefineProofs.
Local Open Scope N_scope.

Definition keys (fs : fields) : list bytes := map fst fs.

Lemma split_field_none : forall name (fs : fields), split_field name fs = None -> ~ In name (keys fs).
Proof.
  intros name fs. induction fs as [|[k v] t IH]; simpl; intros H; [tauto|].
  destruct (bytes_eqb k name) eqn:E; [discriminate|].
  destruct (split_field name t) as [[[b x] a]|]; [discriminate|].
  intros [->|K]; [|exact (IH eq_refl K)].
  rewrite (proj2 (bytes_eqb_eq name name) eq_refl) in E. discriminate.
Qed.

Lemma split_field_keys : forall name (fs : fields) b v a x,
  split_field name fs = Some (b, v, a) -> keys (b ++ (name, x) :: a) = keys fs.
Proof.
  intros name fs b v a x H. apply split_field_app in H as [k [-> Ek]]. apply bytes_eqb_eq in Ek as ->.
  unfold keys. rewrite !map_app. reflexivity.
Qed.

Theorem merge_into_nodup : forall pfs target, NoDup (keys target) -> NoDup (keys (merge_into target pfs)).
Proof.
  induction pfs as [|[k v] t IH]; intros target H; simpl; [exact H|].
  destruct (split_field k target) as [[[b x] a]|] eqn:S.
  - apply IH. rewrite (split_field_keys _ _ _ _ _ _ S). exact H.
  - apply IH. unfold keys. rewrite map_app. simpl.
    (* k goes to the end of the keys: [Add] with an empty suffix *)
    apply (NoDup_Add (Add_app k (map fst target) [])). rewrite app_nil_r.
    split; [exact H|apply split_field_none; exact S].
Qed.

Lemma merge_into_keeps_keys : forall pfs target k, In k (keys target) -> In k (keys (merge_into target pfs)).
Proof.
  induction pfs as [|[k0 v] t IH]; intros target k H; simpl; [exact H|].
  destruct (split_field k0 target) as [[[b x] a]|] eqn:S.
  - apply IH. rewrite (split_field_keys _ _ _ _ _ _ S). exact H.
  - apply IH. unfold keys. rewrite map_app. apply in_or_app. left. exact H.
Qed.

Theorem merge_into_has_all_keys : forall pfs target k, In k (map fst pfs) -> In k (keys (merge_into target pfs)).
Proof.
  induction pfs as [|[k0 v] t IH]; intros target k H; simpl in *; [tauto|].
  destruct H as [->|H]; [|destruct (split_field k0 target) as [[[b x] a]|]; apply IH; exact H].
  assert (G : forall b a : fields, In k (keys (b ++ (k, SLeaf v) :: a))).
  { intros b a. unfold keys. rewrite map_app. apply in_or_app. right. left. reflexivity. }
  destruct (split_field k target) as [[[b x] a]|]; apply merge_into_keeps_keys; apply G.
Qed.

(* a repeated new key gives one field, holding the last value given for it; an existing key is
   overwritten in place *)
Example merge_repeated_new_key :
  merge_into [([97], SLeaf [1])] [([107], [2]); ([107], [3]); ([97], [4]); ([107], [5])]
  = [([97], SLeaf [4]); ([107], SLeaf [5])].
Proof. vm_compute. reflexivity. Qed.

(* at the level of the whole patch: MERGE x {k:1, k:2} creates x = {k:2}, one field *)
Example merge_repeated_key_patch :
  Patch.Cond.apply_with_cond cfg_fixed [128]
    [{| op_kind := 7; op_path := [120]; op_value := [130; 161; 107; 1; 161; 107; 2] |}] None
  = Ok [129; 161; 120; 129; 161; 107; 2].
Proof. vm_compute. reflexivity. Qed.
