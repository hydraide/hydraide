(* The skeleton operations refine the documented semantics (Patch/DocSpec.v).  [norm s] is the
   document a skeleton denotes (spliced values read as documents).  On a skeleton whose leaves are
   scalars ([clean]), each of SET, DELETE, INC, APPEND, PREPEND, REMOVE_AT gives the documented result
   on the denoted document, or the same error class.  That Parse produces scalar leaves is not proved
   (see the example at the end); REMOVE_VAL and MERGE are compared with DocSpec by the correspondence
   harness only. *)
From Coq Require Import Floats.SpecFloat.
From HV Require Import Base.Prelude Patch.Msgpack Patch.Path Patch.Float Patch.Ops Patch.Cond
  Patch.DocSpec Patch.MsgpackProofs Patch.OpsProofs.
Local Open Scope N_scope.

Definition nf (fs : fields) : dfields := map (fun kv => (fst kv, norm (snd kv))) fs.

Lemma norm_map : forall fs, norm (SMap fs) = DMap (nf fs).
Proof.
  intro fs. simpl. f_equal. induction fs as [|[k v] t IH]; [reflexivity|]. simpl. rewrite IH. reflexivity.
Qed.
Lemma norm_arr : forall xs, norm (SArr xs) = DArr (map norm xs).
Proof.
  intro xs. reflexivity.
Qed.
Lemma nf_app : forall a b, nf (a ++ b) = nf a ++ nf b.
Proof. intros. unfold nf. apply map_app. Qed.

(* [clean] is needed where a path meets a leaf: a spliced container leaf navigates in DocSpec but
   not in the skeleton (C13_ops_refine_docspec_refuted); on a clean leaf both sides answer EType *)
Definition scalar_leaf (raw : bytes) : Prop := value_doc raw = DVal raw.
Definition clean (s : skel) : Prop := skel_all scalar_leaf ktrue ctrue s.

Lemma clean_map : forall fs, clean (SMap fs) <-> Forall (fun kv => clean (snd kv)) fs.
Proof.
  intro fs. unfold clean. rewrite skel_all_map. unfold ctrue, ktrue. split.
  - intros [_ H]. eapply Forall_impl; [|exact H]. simpl. tauto.
  - intro H. split; [exact I|]. eapply Forall_impl; [|exact H]. simpl. tauto.
Qed.
Lemma clean_arr : forall xs, clean (SArr xs) <-> Forall clean xs.
Proof. intro xs. unfold clean. rewrite skel_all_arr. unfold ctrue. tauto. Qed.

Lemma split_field_nf : forall name fs,
  split_field name (nf fs) =
  match split_field name fs with Some (b, v, a) => Some (nf b, norm v, nf a) | None => None end.
Proof.
  intros name fs. induction fs as [|[k v] t IH]; [reflexivity|]. simpl.
  destruct (bytes_eqb k name); [reflexivity|]. rewrite IH.
  destruct (split_field name t) as [[[b x] a]|]; reflexivity.
Qed.

Lemma split_nth_norm : forall n xs,
  split_nth n (map norm xs) =
  match split_nth n xs with Some (b, v, a) => Some (map norm b, norm v, map norm a) | None => None end.
Proof.
  intros n xs. revert n. induction xs as [|x t IH]; intro n; destruct n as [|n']; simpl; try reflexivity.
  rewrite IH. destruct (split_nth n' t) as [[[b y] a]|]; reflexivity.
Qed.

Definition nres (r : res skel) : res doc := match r with Ok s => Ok (norm s) | Err e => Err e end.

(* what [dnav] does with the [act] at an existing field / index, Keep written out as the rebuilt
   container *)
Definition interp_value_map (b : dfields) (name : bytes) (v : doc) (a : dfields) (x : act) : res doc :=
  match x with
  | Keep => Ok (DMap (b ++ (name, v) :: a))
  | Put d => Ok (DMap (b ++ (name, d) :: a))
  | Drop => Ok (DMap (b ++ a))
  | _ => Err EPath
  end.
Definition interp_value_arr (b : list doc) (v : doc) (a : list doc) (x : act) : res doc :=
  match x with
  | Keep => Ok (DArr (b ++ v :: a))
  | Put d => Ok (DArr (b ++ d :: a))
  | Drop => Ok (DArr (b ++ a))
  | _ => Err EPath
  end.

(* h and f agree, after [norm], at the four places a path can end *)
Record hsim (h : handlers) (f : slot -> res act) : Prop := {
  sim_missing : forall fs name rest,
    match h_missing h fs name rest with Ok fs' => Ok (DMap (nf fs')) | Err e => Err e end =
    (x <- f (SlotMissing rest) ;;
     match x with Keep => Ok (DMap (nf fs)) | Create d => Ok (DMap (nf fs ++ [(name, d)])) | _ => Err EPath end);
  sim_field : forall b name v a, clean v ->
    match h_field h b name v a with Ok fs' => Ok (DMap (nf fs')) | Err e => Err e end =
    (x <- f (SlotValue (norm v)) ;; interp_value_map (nf b) name (norm v) (nf a) x);
  sim_index : forall b v a, clean v ->
    match h_index h b v a with Ok xs' => Ok (DArr (map norm xs')) | Err e => Err e end =
    (x <- f (SlotValue (norm v)) ;; interp_value_arr (map norm b) (norm v) (map norm a) x);
  sim_append : forall xs,
    match h_append h xs with Ok xs' => Ok (DArr (map norm xs')) | Err e => Err e end =
    (x <- f SlotAppend ;;
     match x with
     | Keep => Ok (DArr (map norm xs))
     | Push true d => Ok (DArr (d :: map norm xs))
     | Push false d => Ok (DArr (map norm xs ++ [d]))
     | _ => Err EPath
     end)
}.

Lemma clean_leaf_doc : forall raw, clean (SLeaf raw) -> norm (SLeaf raw) = DVal raw.
Proof. intros raw H. exact H. Qed.

Lemma nres_bind : forall (A : Type) (a : res A) (k : A -> res skel),
  nres (bind a k) = bind a (fun x => nres (k x)).
Proof. intros A a k. destruct a; reflexivity. Qed.

Lemma nres_map : forall r : res fields,
  nres (fs' <- r ;; Ok (SMap fs')) = match r with Ok fs' => Ok (DMap (nf fs')) | Err e => Err e end.
Proof. intros [fs'|e]; [cbn [bind nres]; rewrite norm_map|]; reflexivity. Qed.

Lemma nres_arr : forall r : res (list skel),
  nres (xs' <- r ;; Ok (SArr xs')) = match r with Ok xs' => Ok (DArr (map norm xs')) | Err e => Err e end.
Proof. intros [xs'|e]; reflexivity. Qed.

Theorem walk_refines_dnav : forall h f, hsim h f -> forall segs s,
  clean s -> nres (walk h segs s) = dnav f segs (norm s).
Proof.
  intros h f Hs segs. induction segs as [|sg rest IH]; intros s Hc; [reflexivity|].
  destruct sg as [name|i|].
  - destruct s as [raw|fs|xs]; [rewrite (clean_leaf_doc _ Hc); reflexivity| |reflexivity].
    rewrite norm_map. cbn [walk dnav]. rewrite split_field_nf.
    destruct (split_field name fs) as [[[b v] a]|] eqn:S.
    + apply split_field_app in S as [k [-> Ek]]. apply bytes_eqb_eq in Ek as ->.
      apply clean_map in Hc. apply Forall_app in Hc as [_ Hc]. inversion Hc as [|? ? Hv _]; subst. cbn [snd] in Hv.
      destruct rest as [|sg2 rest2].
      * rewrite nres_map, (sim_field h f Hs b name v a Hv), nf_app.
        destruct (f (SlotValue (norm v))) as [[]|]; reflexivity.
      * rewrite nres_bind, <- (IH v Hv).
        destruct (walk h (sg2 :: rest2) v); [cbn [bind nres]; rewrite norm_map, nf_app|]; reflexivity.
    + rewrite nres_map, (sim_missing h f Hs). destruct (f (SlotMissing rest)) as [[]|]; reflexivity.
  - destruct s as [raw|fs|xs]; [rewrite (clean_leaf_doc _ Hc); reflexivity|rewrite norm_map; reflexivity|].
    rewrite norm_arr. cbn [walk dnav]. rewrite map_length.
    destruct (resolve_index i (length xs)) as [idx|]; [|reflexivity].
    rewrite split_nth_norm.
    destruct (split_nth idx xs) as [[[b v] a]|] eqn:S; [|reflexivity].
    apply split_nth_app in S as ->.
    apply clean_arr in Hc. apply Forall_app in Hc as [_ Hc]. inversion Hc as [|? ? Hv _]; subst.
    destruct rest as [|sg2 rest2].
    + rewrite nres_arr, (sim_index h f Hs b v a Hv), map_app.
      destruct (f (SlotValue (norm v))) as [[]|]; reflexivity.
    + rewrite nres_bind, <- (IH v Hv).
      destruct (walk h (sg2 :: rest2) v); [cbn [bind nres]; rewrite norm_arr, map_app|]; reflexivity.
  - destruct rest as [|sg2 rest2]; [|reflexivity].
    destruct s as [raw|fs|xs]; [rewrite (clean_leaf_doc _ Hc); reflexivity|rewrite norm_map; reflexivity|].
    rewrite norm_arr. cbn [walk dnav]. rewrite nres_arr, (sim_append h f Hs).
    destruct (f SlotAppend) as [[| | | |[|] d]|]; reflexivity.
Qed.

Lemma chain_norm : forall ns x, norm (chain ns x) = dchain ns (norm x).
Proof. induction ns as [|n t IH]; intro x; simpl; [reflexivity|]. rewrite IH. reflexivity. Qed.

Lemma create_fields_sim : forall fs name rest x,
  match create_fields fs name rest x with Ok fs' => Ok (DMap (nf fs')) | Err e => Err e end =
  (a <- create_at rest (norm x) ;;
   match a with Keep => Ok (DMap (nf fs)) | Create d => Ok (DMap (nf fs ++ [(name, d)])) | _ => Err EPath end).
Proof.
  intros fs name rest x. unfold create_fields, create_at. destruct (field_names rest) as [ns|]; [|reflexivity].
  simpl. rewrite nf_app. simpl. rewrite chain_norm. reflexivity.
Qed.

Lemma hsim_set : forall v, hsim (h_set v) (d_set (value_doc v)).
Proof.
  intro v. constructor; cbn.
  - intros. apply (create_fields_sim fs name rest (SLeaf v)).
  - intros. rewrite nf_app. reflexivity.
  - intros. rewrite map_app. reflexivity.
  - reflexivity.
Qed.

Lemma hsim_delete : hsim h_delete d_delete.
Proof.
  constructor; cbn.
  - reflexivity.
  - intros. rewrite nf_app. reflexivity.
  - intros. rewrite map_app. reflexivity.
  - reflexivity.
Qed.

Lemma hsim_remove_at : hsim h_remove_at d_remove_at.
Proof.
  constructor; [reflexivity|exact (sim_field _ _ hsim_delete)|exact (sim_index _ _ hsim_delete)|reflexivity].
Qed.

Lemma hsim_push : forall v p, hsim (h_append_op v p) (d_push p (value_doc v)).
Proof.
  intros v p. constructor; cbn.
  - intros fs name rest. unfold create_array.
    destruct (rev rest) as [|[| |] ri]; try reflexivity.
    destruct (field_names (rev ri)) as [ns|]; [|reflexivity].
    cbn. rewrite nf_app. cbn. rewrite chain_norm. reflexivity.
  - reflexivity.
  - reflexivity.
  - intro xs. destruct p; cbn; [reflexivity|]. rewrite map_app. reflexivity.
Qed.

Lemma inc_bytes_scalar : forall code t d nb, inc_bytes code t d = Ok nb -> value_doc nb = DVal nb.
Proof.
  intros code t d nb H. destruct (inc_bytes_fixed _ _ _ _ H) as [c [p [-> Hs]]].
  unfold value_doc. rewrite (parse_fixed c p Hs). reflexivity.
Qed.

Lemma inc_target_sim : forall v t d, clean t ->
  d_inc v d (SlotValue (norm t)) =
  match inc_target t d with Ok t' => Ok (Put (norm t')) | Err e => Err e end.
Proof.
  intros v t d Hc. destruct t as [raw|fs|xs].
  - rewrite (clean_leaf_doc _ Hc). unfold inc_target, d_inc, bind.
    destruct (read_numeric raw) as [tn|e]; [|reflexivity].
    destruct (num_class_of tn =? num_class_of d); [|reflexivity].
    destruct (inc_bytes (leaf_code raw) tn d) as [nb|e] eqn:E; [|reflexivity].
    change (norm (SLeaf nb)) with (value_doc nb). rewrite (inc_bytes_scalar _ _ _ _ E). reflexivity.
  - rewrite norm_map. reflexivity.
  - rewrite norm_arr. reflexivity.
Qed.

Lemma hsim_inc : forall v d, hsim (h_inc v d) (d_inc v d).
Proof.
  intros v d. constructor; cbn [h_inc h_missing h_field h_index h_append].
  - exact (sim_missing _ _ (hsim_set v)).
  - intros b name t a Hc. rewrite (inc_target_sim v t d Hc). destruct (inc_target t d); cbn; [rewrite nf_app|]; reflexivity.
  - intros b t a Hc. rewrite (inc_target_sim v t d Hc). destruct (inc_target t d); cbn; [rewrite map_app|]; reflexivity.
  - reflexivity.
Qed.

Lemma guarded_refines : forall (g1 g2 : res unit) (k : res skel) (k' : res doc), nres k = k' ->
  nres (_ <- g1 ;; _ <- g2 ;; k) = (_ <- g1 ;; _ <- g2 ;; k').
Proof. intros [[]|e1] [[]|e2] k k' H; try reflexivity. exact H. Qed.

Theorem op_refines_docspec : forall c, validate_values c = true -> forall s o segs,
  clean s -> op_kind o <= 5 ->
  nres (apply_op c s o segs) = doc_op (norm s) o segs.
Proof.
  intros c Hv s o segs Hc Hk. unfold apply_op, doc_op, check_value. rewrite Hv. cbv zeta.
  generalize (op_value o) as v. intro v.
  (* the cases come in the order of the binary digits of the kind: 0, (7), 5, 3, (6), 4, 2, 1 *)
  destruct (op_kind o) as [|[[[|p|]|[|p|]|]|[[|p|]|[|p|]|]|]]; try lia.
  - (* 0 SET *) apply guarded_refines. apply walk_refines_dnav; [apply hsim_set|exact Hc].
  - (* 5 REMOVE_AT *) destruct (last_is_index segs); [|reflexivity].
    apply walk_refines_dnav; [apply hsim_remove_at|exact Hc].
  - (* 3 APPEND *) apply guarded_refines. apply walk_refines_dnav; [apply hsim_push|exact Hc].
  - (* 4 PREPEND *) apply guarded_refines. apply walk_refines_dnav; [apply hsim_push|exact Hc].
  - (* 2 INC *) apply guarded_refines. rewrite nres_bind. destruct (read_numeric v) as [d|e]; [|reflexivity].
    destruct d; try reflexivity; (apply walk_refines_dnav; [apply hsim_inc|exact Hc]).
  - (* 1 DELETE *) apply walk_refines_dnav; [apply hsim_delete|exact Hc].
Qed.

(* [clean] is satisfiable by a parsed body, and the common result is not an error *)
Example op_refines_docspec_example :
  exists s, parse ex_body = Ok s /\ clean s /\
    nres (apply_op cfg_fixed s (ex_set [121; 46; 122] [147; 1; 2; 3]) [SegField [121]; SegField [122]]) =
    Ok (DMap [([120], DVal [1]); ([110], DVal [208; 127]);
              ([121], DMap [([122], DArr [DVal [1]; DVal [2]; DVal [3]])])]).
Proof.
  eexists. split; [vm_compute; reflexivity|]. split.
  - apply clean_map. repeat constructor.
  - vm_compute. reflexivity.
Qed.
