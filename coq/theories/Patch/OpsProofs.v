(* Patch/OpsProofs.v — theorems about the patch operations (C13):
   every operation of a configuration that validates values keeps the leaves of the skeleton
   well-formed; atomicity of [patch_fields], the model of swamp.PatchFields defined here; INC keeps
   the target's type with the stated wrap ([width_bits]); what compare_leaf computes on numeric
   leaves.  The closed inputs [ex_body], [ex_set], [nan_body], [nan_cond] are shared with Props/C13.v;
   six closed patches are evaluated. *)
From Coq Require Import ZifyN ZifyNat ZifyBool Floats.SpecFloat.
From HV Require Import Base.Prelude Patch.Msgpack Patch.Path Patch.Float Patch.Ops Patch.Cond
  Patch.MsgpackProofs.
Local Open Scope N_scope.

Lemma bind_Ok : forall (A B : Type) (r : res A) (k : A -> res B) y,
  (x <- r ;; k x) = Ok y -> exists x, r = Ok x /\ k x = Ok y.
Proof. intros A B [x|e] k y H; [exists x; split; [reflexivity|exact H]|discriminate]. Qed.

Lemma bytes_eqb_eq : forall a b, bytes_eqb a b = true <-> a = b.
Proof. exact (list_eqb_eq N.eqb N.eqb_eq). Qed.

Lemma split_field_app : forall (V : Type) name (fs : list (bytes * V)) b v a,
  split_field name fs = Some (b, v, a) -> exists k, fs = b ++ (k, v) :: a /\ bytes_eqb k name = true.
Proof.
  intros V name fs. induction fs as [|[k x] t IH]; intros b v a H; simpl in H; [discriminate|].
  destruct (bytes_eqb k name) eqn:E.
  - injection H as <- <- <-. exists k. split; [reflexivity|exact E].
  - destruct (split_field name t) as [[[b' v'] a']|]; [|discriminate]. injection H as <- <- <-.
    destruct (IH _ _ _ eq_refl) as [k' [-> Ek]]. exists k'. split; [reflexivity|exact Ek].
Qed.

Lemma split_nth_app : forall (V : Type) n (xs : list V) b v a,
  split_nth n xs = Some (b, v, a) -> xs = b ++ v :: a.
Proof.
  intros V n xs. revert n. induction xs as [|x t IH]; intros [|n'] b v a H; simpl in H; try discriminate.
  - injection H as <- <- <-. reflexivity.
  - destruct (split_nth n' t) as [[[b' v'] a']|] eqn:S; [|discriminate]. injection H as <- <- <-.
    simpl. f_equal. apply (IH _ _ _ _ S).
Qed.

(* FW, AW: every value in a list of fields, of array items, has well-formed leaves (FW in the shape
   [skel_all_map] gives it, trivial conjunct on the key included, so that [lw_map] is immediate) *)
Definition FW (fs : fields) : Prop := Forall (fun kv => ktrue (fst kv) /\ leaves_wf (snd kv)) fs.
Definition AW (xs : list skel) : Prop := Forall leaves_wf xs.

Lemma lw_map : forall fs, leaves_wf (SMap fs) <-> FW fs.
Proof. intro fs. unfold leaves_wf, FW. rewrite skel_all_map. unfold ctrue. tauto. Qed.
Lemma lw_arr : forall xs, leaves_wf (SArr xs) <-> AW xs.
Proof. intro xs. unfold leaves_wf, AW. rewrite skel_all_arr. unfold ctrue. tauto. Qed.

Record handlers_wf (h : handlers) : Prop := {
  hw_missing : forall fs name rest fs', FW fs -> h_missing h fs name rest = Ok fs' -> FW fs';
  hw_field : forall b name v a fs', FW b -> leaves_wf v -> FW a -> h_field h b name v a = Ok fs' -> FW fs';
  hw_index : forall b v a xs', AW b -> leaves_wf v -> AW a -> h_index h b v a = Ok xs' -> AW xs';
  hw_append : forall xs xs', AW xs -> h_append h xs = Ok xs' -> AW xs'
}.

Lemma FW_entry : forall k v, leaves_wf v -> ktrue (fst (k, v)) /\ leaves_wf (snd (k, v)).
Proof. intros. split; [exact I|assumption]. Qed.

Lemma leaf_wf : forall v, WF v -> leaves_wf (SLeaf v).
Proof. intros v H. exact H. Qed.

Lemma FW_put : forall b k v a, FW b -> leaves_wf v -> FW a -> FW (b ++ (k, v) :: a).
Proof. intros. apply Forall_app. split; [assumption|]. constructor; [apply FW_entry; assumption|assumption]. Qed.

Lemma FW_snoc : forall fs k v, FW fs -> leaves_wf v -> FW (fs ++ [(k, v)]).
Proof. intros. apply FW_put; [assumption..|constructor]. Qed.

Lemma AW_put : forall b v a, AW b -> leaves_wf v -> AW a -> AW (b ++ v :: a).
Proof. intros. apply Forall_app. split; [assumption|]. constructor; assumption. Qed.

Lemma walk_wf : forall h, handlers_wf h -> forall segs cur s',
  leaves_wf cur -> walk h segs cur = Ok s' -> leaves_wf s'.
Proof.
  intros h Hh segs. induction segs as [|sg rest IH]; intros cur s' Hc H; [discriminate|].
  cbn [walk] in H. destruct sg as [name|i|].
  - destruct cur as [raw|fs|xs]; try discriminate. apply lw_map in Hc.
    destruct (split_field name fs) as [[[b v] a]|] eqn:S.
    + apply split_field_app in S as [k [-> _]].
      apply Forall_app in Hc as [Hb Ha]. inversion Ha as [|? ? [_ Hv] Ha']; subst.
      destruct rest as [|sg2 rest2]; apply bind_Ok in H as [x [E [= <-]]]; apply lw_map.
      * exact (hw_field h Hh _ _ _ _ _ Hb Hv Ha' E).
      * apply FW_put; [exact Hb|exact (IH _ _ Hv E)|exact Ha'].
    + apply bind_Ok in H as [fs' [E [= <-]]]. apply lw_map. exact (hw_missing h Hh _ _ _ _ Hc E).
  - destruct cur as [raw|fs|xs]; try discriminate. apply lw_arr in Hc.
    destruct (resolve_index i (length xs)) as [idx|]; [|discriminate].
    destruct (split_nth idx xs) as [[[b v] a]|] eqn:S; [|discriminate].
    apply split_nth_app in S as ->.
    apply Forall_app in Hc as [Hb Ha]. inversion Ha as [|? ? Hv Ha']; subst.
    destruct rest as [|sg2 rest2]; apply bind_Ok in H as [x [E [= <-]]]; apply lw_arr.
    + exact (hw_index h Hh _ _ _ _ Hb Hv Ha' E).
    + apply AW_put; [exact Hb|exact (IH _ _ Hv E)|exact Ha'].
  - destruct rest; [|discriminate]. destruct cur as [raw|fs|xs]; try discriminate. apply lw_arr in Hc.
    apply bind_Ok in H as [xs' [E [= <-]]]. apply lw_arr. exact (hw_append h Hh _ _ Hc E).
Qed.

Lemma chain_wf : forall ns v, leaves_wf v -> leaves_wf (chain ns v).
Proof.
  induction ns as [|n t IH]; intros v H; simpl; [exact H|].
  apply lw_map. constructor; [apply FW_entry; apply IH; exact H|constructor].
Qed.

Lemma create_fields_wf : forall fs name rest v fs',
  FW fs -> leaves_wf v -> create_fields fs name rest v = Ok fs' -> FW fs'.
Proof.
  unfold create_fields. intros fs name rest v fs' Hf Hv H. destruct (field_names rest); [|discriminate].
  injection H as <-. apply FW_snoc; [exact Hf|apply chain_wf; exact Hv].
Qed.

Lemma FW_update : forall (g : skel -> res skel),
  (forall t t', leaves_wf t -> g t = Ok t' -> leaves_wf t') ->
  forall b name t a fs', FW b -> leaves_wf t -> FW a ->
  (t' <- g t ;; Ok (b ++ (name, t') :: a)) = Ok fs' -> FW fs'.
Proof.
  intros g Hg b name t a fs' Hb Ht Ha H. apply bind_Ok in H as [t' [E [= <-]]].
  apply FW_put; [exact Hb|exact (Hg _ _ Ht E)|exact Ha].
Qed.

Lemma AW_update : forall (g : skel -> res skel),
  (forall t t', leaves_wf t -> g t = Ok t' -> leaves_wf t') ->
  forall b t a xs', AW b -> leaves_wf t -> AW a ->
  (t' <- g t ;; Ok (b ++ t' :: a)) = Ok xs' -> AW xs'.
Proof.
  intros g Hg b t a xs' Hb Ht Ha H. apply bind_Ok in H as [t' [E [= <-]]].
  apply AW_put; [exact Hb|exact (Hg _ _ Ht E)|exact Ha].
Qed.

Lemma h_set_wf : forall v, WF v -> handlers_wf (h_set v).
Proof.
  intros v Hv. constructor; cbn.
  - intros fs name rest fs' Hf. apply create_fields_wf; [exact Hf|exact Hv].
  - apply (FW_update (fun _ => Ok (SLeaf v))). intros t t' _ [= <-]. exact Hv.
  - apply (AW_update (fun _ => Ok (SLeaf v))). intros t t' _ [= <-]. exact Hv.
  - discriminate.
Qed.

Lemma h_delete_wf : handlers_wf h_delete.
Proof.
  constructor; cbn.
  - intros fs name rest fs' Hf [= <-]. exact Hf.
  - intros b name t a fs' Hb _ Ha [= <-]. apply Forall_app. split; assumption.
  - intros b t a xs' Hb _ Ha [= <-]. apply Forall_app. split; assumption.
  - intros xs xs' Hx [= <-]. exact Hx.
Qed.

Lemma h_remove_at_wf : handlers_wf h_remove_at.
Proof.
  constructor; [discriminate|exact (hw_field _ h_delete_wf)|exact (hw_index _ h_delete_wf)|discriminate].
Qed.

(* every INC result is a sized numeric code followed by exactly its payload *)
Lemma inc_bytes_fixed : forall code t d nb, inc_bytes code t d = Ok nb ->
  exists c p, nb = c :: p /\ lead_shape c = ShFixed (length p).
Proof.
  intros code t d nb H. unfold inc_bytes in H.
  destruct t, d; try discriminate; injection H as <-; unfold enc_int, enc_uint, enc_float;
    repeat destruct (_ =? _); eexists; eexists; (split; reflexivity).
Qed.

Lemma inc_bytes_WF : forall code t d nb, inc_bytes code t d = Ok nb -> WF nb.
Proof. intros code t d nb H. destruct (inc_bytes_fixed _ _ _ _ H) as [c [p [-> Hs]]]. exact (WF_fixed c p Hs). Qed.

Lemma inc_target_wf : forall t d t', inc_target t d = Ok t' -> leaves_wf t'.
Proof.
  unfold inc_target. intros t d t' H. destruct t as [raw| |]; try discriminate.
  apply bind_Ok in H as [tn [_ H]]. destruct (num_class_of tn =? num_class_of d); [|discriminate].
  apply bind_Ok in H as [nb [E [= <-]]]. exact (inc_bytes_WF _ _ _ _ E).
Qed.

Lemma h_inc_wf : forall v d, WF v -> handlers_wf (h_inc v d).
Proof.
  intros v d Hv. constructor.
  - exact (hw_missing _ (h_set_wf v Hv)).
  - apply (FW_update (fun t => inc_target t d)). intros t t' _. apply inc_target_wf.
  - apply (AW_update (fun t => inc_target t d)). intros t t' _. apply inc_target_wf.
  - discriminate.
Qed.

Lemma h_append_wf : forall v p, WF v -> handlers_wf (h_append_op v p).
Proof.
  intros v p Hv. constructor; cbn; try discriminate.
  - intros fs name rest fs' Hf H. unfold create_array in H.
    destruct (rev rest) as [|[| |] ri]; try discriminate.
    destruct (field_names (rev ri)); [|discriminate]. injection H as <-.
    apply FW_snoc; [exact Hf|]. apply chain_wf. apply lw_arr. constructor; [exact Hv|constructor].
  - intros xs xs' Hx [= <-]. destruct p.
    + constructor; [exact Hv|exact Hx].
    + apply Forall_app. split; [exact Hx|]. constructor; [exact Hv|constructor].
Qed.

Lemma remove_val_wf : forall v xs, AW xs -> AW (remove_val v xs).
Proof.
  intros v xs H. induction H as [|x t Hx Ht IH]; simpl; [constructor|].
  destruct x as [raw| |]; try (constructor; assumption).
  destruct (bytes_eqb raw v); [exact Ht|constructor; assumption].
Qed.

Lemma h_remove_val_wf : forall v, handlers_wf (h_remove_val v).
Proof.
  intro v.
  assert (G : forall t t', leaves_wf t -> remove_val_target v t = Ok t' -> leaves_wf t').
  { intros [| |xs] t' Ht [= <-]. apply lw_arr. apply remove_val_wf. apply lw_arr. exact Ht. }
  constructor.
  - exact (hw_missing _ h_delete_wf).
  - exact (FW_update (remove_val_target v) G).
  - exact (AW_update (remove_val_target v) G).
  - exact (hw_append _ h_delete_wf).
Qed.

(* PW: every value of the extracted merge fields is well-formed *)
Definition PW (pfs : list (bytes * bytes)) : Prop := Forall (fun kv => WF (snd kv)) pfs.

Lemma merge_into_wf : forall pfs target, PW pfs -> FW target -> FW (merge_into target pfs).
Proof.
  induction pfs as [|[k v] t IH]; intros target Hp Ht; simpl; [exact Ht|].
  inversion Hp; subst. destruct (split_field k target) as [[[b x] a]|] eqn:S; apply IH; try assumption.
  - apply split_field_app in S as [k' [-> _]].
    apply Forall_app in Ht as [Hb Ha]. inversion Ha; subst. apply FW_put; assumption.
  - apply FW_snoc; assumption.
Qed.

Lemma extract_fields_wf : forall v pfs, extract_fields v = Ok pfs -> PW pfs.
Proof.
  unfold extract_fields. intros v pfs H. destruct v as [|c r]; [discriminate|].
  destruct (is_map_code c); [|discriminate]. destruct (lead_shape c); try discriminate.
  destruct (read_count w c r) as [[n r']|]; [|discriminate].
  destruct (parse_many extract_field (clamp n r') r') as [[l rest]|e] eqn:PM; [|discriminate].
  destruct (n <=? N.of_nat (length r')); [|discriminate]. injection H as <-.
  eapply parse_many_all; [|exact PM]. intros b [k x] r1 E. unfold extract_field in E.
  destruct (parse_key b) as [[k0 rk]|e]; [|discriminate].
  destruct (skip (S (length rk)) rk) as [r2|] eqn:SK; [|discriminate]. injection E as <- <- <-.
  apply skip_sound in SK as [w0 [-> Ww]]. cbn [snd].
  rewrite app_length, Nat.add_sub, firstn_len_app. exact Ww.
Qed.

Lemma h_merge_wf : forall pfs, PW pfs -> handlers_wf (h_merge pfs).
Proof.
  intros pfs Hp.
  assert (G : forall t t', leaves_wf t -> merge_target pfs t = Ok t' -> leaves_wf t').
  { intros [|fs|] t' Ht [= <-]. apply lw_map. apply merge_into_wf; [exact Hp|apply lw_map; exact Ht]. }
  constructor; cbn.
  - intros fs name rest fs' Hf. apply create_fields_wf; [exact Hf|]. apply (G (SMap [])); [apply lw_map; constructor|reflexivity].
  - exact (FW_update (merge_target pfs) G).
  - exact (AW_update (merge_target pfs) G).
  - discriminate.
Qed.

Lemma check_value_WF : forall c, validate_values c = true -> forall v, check_value c v = Ok tt -> WF v.
Proof.
  unfold check_value. intros c -> v H. destruct (valid_value v) eqn:E; [|discriminate].
  apply valid_value_WF. exact E.
Qed.

(* the handlers an operation with value v walks with, and what [apply_op] has checked by then *)
Inductive op_handlers (c : cfg) (v : bytes) : handlers -> Prop :=
| OH_set : check_value c v = Ok tt -> op_handlers c v (h_set v)
| OH_delete : op_handlers c v h_delete
| OH_inc : forall d, check_value c v = Ok tt -> op_handlers c v (h_inc v d)
| OH_push : forall p, check_value c v = Ok tt -> op_handlers c v (h_append_op v p)
| OH_remove_at : op_handlers c v h_remove_at
| OH_remove_val : op_handlers c v (h_remove_val v)
| OH_merge : forall pfs, check_value c v = Ok tt -> extract_fields v = Ok pfs -> op_handlers c v (h_merge pfs).

Lemma guarded_Ok : forall (g : res unit) c v (k : res skel) y,
  (_ <- g ;; _ <- check_value c v ;; k) = Ok y -> check_value c v = Ok tt /\ k = Ok y.
Proof.
  intros g c v k y H. apply bind_Ok in H as [_ [_ H]]. apply bind_Ok in H as [[] [CV H]]. split; assumption.
Qed.

Lemma apply_op_walk : forall c s o segs s', apply_op c s o segs = Ok s' ->
  exists h, op_handlers c (op_value o) h /\ walk h segs s = Ok s'.
Proof.
  intros c s o segs s'. unfold apply_op. generalize (op_value o) as v. intro v.
  (* the cases come in the order of the binary digits of the kind: 0, 7, 5, 3, 6, 4, 2, 1 *)
  destruct (op_kind o) as [|[[[|p|]|[|p|]|]|[[|p|]|[|p|]|]|]]; try discriminate; intro H.
  - (* 0 SET *) apply guarded_Ok in H as [CV H]. eexists. split; [constructor; exact CV|exact H].
  - (* 7 MERGE *) apply guarded_Ok in H as [CV H]. apply bind_Ok in H as [pfs [EF H]].
    eexists. split; [constructor; eassumption|exact H].
  - (* 5 REMOVE_AT *) destruct (last_is_index segs); [|discriminate]. eexists. split; [constructor|exact H].
  - (* 3 APPEND *) apply guarded_Ok in H as [CV H]. eexists. split; [constructor; exact CV|exact H].
  - (* 6 REMOVE_VAL *) apply bind_Ok in H as [_ [_ H]]. eexists. split; [constructor|exact H].
  - (* 4 PREPEND *) apply guarded_Ok in H as [CV H]. eexists. split; [constructor; exact CV|exact H].
  - (* 2 INC *) apply guarded_Ok in H as [CV H]. apply bind_Ok in H as [d [_ H]].
    destruct d; try discriminate; eexists; (split; [constructor; exact CV|exact H]).
  - (* 1 DELETE *) eexists. split; [constructor|exact H].
Qed.

Lemma apply_op_wf : forall c, validate_values c = true -> forall s o segs s',
  leaves_wf s -> apply_op c s o segs = Ok s' -> leaves_wf s'.
Proof.
  intros c Hc s o segs s' Hs H. apply apply_op_walk in H as [h [Hh W]]. refine (walk_wf h _ _ _ _ Hs W).
  destruct Hh as [CV| |d CV|p CV| | |pfs CV EF]; try apply (check_value_WF c Hc) in CV.
  - apply h_set_wf. exact CV.
  - apply h_delete_wf.
  - apply h_inc_wf. exact CV.
  - apply h_append_wf. exact CV.
  - apply h_remove_at_wf.
  - apply h_remove_val_wf.
  - apply h_merge_wf. exact (extract_fields_wf _ _ EF).
Qed.

Lemma apply_ops_wf : forall c, validate_values c = true -> forall ops s s',
  leaves_wf s -> apply_ops c s ops = Ok s' -> leaves_wf s'.
Proof.
  intros c Hc. induction ops as [|o t IH]; intros s s' Hs H; cbn [apply_ops] in H.
  - injection H as <-. exact Hs.
  - destruct (parse_path (op_path o)) as [segs|]; [|discriminate].
    apply bind_Ok in H as [s1 [E H]]. exact (IH _ _ (apply_op_wf c Hc _ _ _ _ Hs E) H).
Qed.

Lemma apply_ops_app : forall c ops1 ops2 s,
  apply_ops c s (ops1 ++ ops2) = (s1 <- apply_ops c s ops1 ;; apply_ops c s1 ops2).
Proof.
  induction ops1 as [|o t IH]; intros ops2 s; simpl; [reflexivity|].
  destruct (parse_path (op_path o)); [|reflexivity]. unfold bind.
  destruct (apply_op c s o l); [apply IH|reflexivity].
Qed.

Lemma apply_with_cond_Ok : forall c body ops cd out, apply_with_cond c body ops cd = Ok out ->
  exists s s', parse body = Ok s /\ match cd with Some x => eval_cond c s x | None => Ok tt end = Ok tt /\
    apply_ops c s ops = Ok s' /\ out = serialize s'.
Proof.
  unfold apply_with_cond. intros c body ops cd out H.
  apply bind_Ok in H as [s [P H]]. apply bind_Ok in H as [[] [C H]]. apply bind_Ok in H as [s' [A [= <-]]].
  exists s, s'. repeat split; assumption.
Qed.

Definition ex_body : bytes := [130; 161; 120; 1; 161; 110; 208; 127].   (* {x: 1, n: int8 127} *)
Definition ex_set (p v : bytes) : op := {| op_kind := 0; op_path := p; op_value := v |}.

(* a patch that the repaired code accepts *)
Example success_wellformed_example :
  apply_with_cond cfg_fixed ex_body [ex_set [121] [161; 97]] None
  = Ok [131; 161; 120; 1; 161; 110; 208; 127; 161; 121; 161; 97].
Proof. vm_compute. reflexivity. Qed.

(* the repaired code rejects SET x with 0xc1, with a truncated string, with a value followed by a byte *)
Example malformed_value_rejected :
  apply_with_cond cfg_fixed ex_body [ex_set [120] [193]] None = Err EInvalid /\
  apply_with_cond cfg_fixed ex_body [ex_set [120] [165; 97; 98]] None = Err EInvalid /\
  apply_with_cond cfg_fixed ex_body [ex_set [120] [1; 2]] None = Err EInvalid.
Proof. vm_compute. repeat split; reflexivity. Qed.

(* swamp.PatchFields: the stored body is replaced only when ApplyWithCondition succeeds *)
Definition patch_fields (c : cfg) (stored : bytes) (ops : list op) (cd : option cond) : (N * bytes) :=
  match apply_with_cond c stored ops cd with
  | Ok out => (0, out)
  | Err e => (err_code e, stored)
  end.

Theorem atomic_on_failure : forall c stored ops cd,
  fst (patch_fields c stored ops cd) <> 0 -> snd (patch_fields c stored ops cd) = stored.
Proof.
  intros c stored ops cd. unfold patch_fields. destruct (apply_with_cond c stored ops cd); simpl; [congruence|reflexivity].
Qed.

Example atomic_example :
  patch_fields cfg_fixed ex_body [ex_set [121] [1]; ex_set [120; 46; 122] [2]] None = (4, ex_body).
Proof. vm_compute. reflexivity. Qed.

(* payload width of a sized integer code (uint8..uint64 = 204..207, int8..int64 = 208..211); 64 for any other *)
Definition width_bits (code : N) : nat :=
  if (code =? 204) || (code =? 208) then 8%nat
  else if (code =? 205) || (code =? 209) then 16%nat
  else if (code =? 206) || (code =? 210) then 32%nat
  else 64%nat.

(* a sized integer / float code is kept; a fixint target is widened to the 64-bit code of its class
   (the two theorems below spell this out for their class instead of mentioning it) *)
Definition inc_result_code (code : N) : N :=
  if in_range 202 211 code then code
  else if is_posfix code then 207
  else 211.

Lemma z_mod_pow_lt : forall z b, z_mod_pow z b < 2 ^ N.of_nat b.
Proof.
  intros z b. unfold z_mod_pow.
  assert (0 < 2 ^ Z.of_nat b)%Z by (apply Z.pow_pos_nonneg; lia).
  pose proof (Z.mod_pos_bound z (2 ^ Z.of_nat b) H) as B.
  apply N2Z.inj_lt. rewrite Z2N.id by lia. rewrite N2Z.inj_pow. rewrite nat_N_Z. simpl Z.of_N. lia.
Qed.

Lemma read_numeric_sized : forall c p, in_range 204 211 c = true -> length p = (width_bits c / 8)%nat ->
  read_numeric (c :: p) =
  Ok (if c <? 208 then NUint (be_val 0 p) else NInt (signed (width_bits c) (be_val 0 p))).
Proof.
  intros c p Hc L. unfold in_range in Hc.
  assert (T : take (width_bits c / 8) p = Some (p, [])) by (rewrite <- L; apply take_all).
  assert (E : c = 204 \/ c = 205 \/ c = 206 \/ c = 207 \/ c = 208 \/ c = 209 \/ c = 210 \/ c = 211) by lia.
  destruct E as [E|[E|[E|[E|[E|[E|[E|E]]]]]]]; subst c; unfold read_numeric; cbn in T |- *; rewrite T; reflexivity.
Qed.

(* the int result: same code for int8/16/32/64, value = two's-complement wrap of the exact sum
   at that width; fixint targets come back as int64 *)
Theorem inc_int_type_and_wrap : forall code a b nb,
  inc_bytes code (NInt a) (NInt b) = Ok nb ->
  let rc := if in_range 208 210 code then code else 211 in
  leaf_code nb = rc /\
  read_numeric nb = Ok (NInt (signed (width_bits rc) (z_mod_pow (a + b) (width_bits rc)))).
Proof.
  intros code a b nb [= <-]. unfold enc_int, in_range.
  destruct (N.eqb_spec code 208) as [->|N8]; [|destruct (N.eqb_spec code 209) as [->|N16];
    [|destruct (N.eqb_spec code 210) as [->|N32]]].
  - (* int8 *) split; [reflexivity|]. rewrite read_numeric_sized by reflexivity. reflexivity.
  - (* int16 *) split; [reflexivity|]. rewrite read_numeric_sized by reflexivity.
    rewrite be_val_be2_mod, N.mod_small by apply (z_mod_pow_lt _ 16). reflexivity.
  - (* int32 *) split; [reflexivity|]. rewrite read_numeric_sized by reflexivity.
    rewrite be_val_be4_mod, N.mod_small by apply (z_mod_pow_lt _ 32). reflexivity.
  - (* any other code: int64 *) replace ((208 <=? code) && (code <=? 210)) with false by lia.
    split; [reflexivity|]. rewrite read_numeric_sized by reflexivity.
    rewrite be_val_be8_mod, N.mod_small by apply (z_mod_pow_lt _ 64). reflexivity.
Qed.

(* the uint result: same code for uint8/16/32/64, value = sum modulo 2^width; positive fixint
   targets come back as uint64 *)
Theorem inc_uint_type_and_wrap : forall code a b nb,
  inc_bytes code (NUint a) (NUint b) = Ok nb ->
  let rc := if in_range 204 206 code then code else 207 in
  leaf_code nb = rc /\ read_numeric nb = Ok (NUint ((a + b) mod 2 ^ N.of_nat (width_bits rc))).
Proof.
  intros code a b nb [= <-]. unfold enc_uint, in_range.
  destruct (N.eqb_spec code 204) as [->|N8]; [|destruct (N.eqb_spec code 205) as [->|N16];
    [|destruct (N.eqb_spec code 206) as [->|N32]]].
  - (* uint8 *) split; [reflexivity|]. rewrite read_numeric_sized by reflexivity. reflexivity.
  - (* uint16 *) split; [reflexivity|]. rewrite read_numeric_sized by reflexivity.
    rewrite be_val_be2_mod, N.mod_mod by discriminate. reflexivity.
  - (* uint32 *) split; [reflexivity|]. rewrite read_numeric_sized by reflexivity.
    rewrite be_val_be4_mod, N.mod_mod by discriminate. reflexivity.
  - (* any other code: uint64 *) replace ((204 <=? code) && (code <=? 206)) with false by lia.
    split; [reflexivity|]. rewrite read_numeric_sized by reflexivity.
    rewrite be_val_be8_mod, N.mod_mod by discriminate. reflexivity.
Qed.

(* the wrap is real: int8 127 + 1 = int8 -128, reported as success *)
Example inc_int8_wraps :
  apply_with_cond cfg_fixed ex_body [{| op_kind := 2; op_path := [110]; op_value := [208; 1] |}] None
  = Ok [130; 161; 120; 1; 161; 110; 208; 128].
Proof. vm_compute. reflexivity. Qed.

Lemma compare_leaf_numeric : forall c a b x y,
  read_numeric a = Ok x -> read_numeric b = Ok y -> num_class_of x <> 0 ->
  compare_leaf c a b =
  match x, y with
  | NInt x, NInt y => Ok (of_comparison (x ?= y)%Z)
  | NUint x, NUint y => Ok (of_comparison (x ?= y))
  | NFloat x, NFloat y => Ok (float_cmp c x y)
  | _, _ => Err EType
  end.
Proof.
  intros c a b x y Ra Rb Hx. unfold compare_leaf. destruct a; [discriminate|]. destruct b; [discriminate|].
  rewrite Ra, Rb. destruct x; [reflexivity..|contradiction].
Qed.

Definition nan64 : bytes := [203; 127; 248; 0; 0; 0; 0; 0; 0].
Definition nan_body : bytes := [129; 161; 102] ++ nan64.          (* {f: NaN} *)
Definition nan_cond (cop : N) : cond := {| cond_path := [102]; cond_op := cop; cond_threshold := nan64 |}.

Example nan_equals_nothing_after_fix :
  apply_with_cond cfg_fixed nan_body [] (Some (nan_cond 0)) = Err ECondNotMet /\
  apply_with_cond cfg_fixed nan_body [] (Some (nan_cond 1)) = Ok nan_body /\
  apply_with_cond cfg_fixed nan_body [] (Some (nan_cond 3)) = Err ECondNotMet /\
  apply_with_cond cfg_fixed nan_body [] (Some (nan_cond 5)) = Err ECondNotMet.
Proof. vm_compute. repeat split; reflexivity. Qed.

(* later ops of a patch see what earlier ops wrote: SET n := int32 1000 then INC n by int8 1 on a
   body where n was int8 5 gives int32 1001 (the code of the value just stored, not the
   pre-patch one); uint8 7, SET int16 256, INC int8 -1 gives int16 255 *)
Example inc_after_set_uses_the_stored_type :
  apply_with_cond cfg_fixed [129; 161; 110; 208; 5]
    [ex_set [110] [210; 0; 0; 3; 232]; {| op_kind := 2; op_path := [110]; op_value := [208; 1] |}] None
  = Ok [129; 161; 110; 210; 0; 0; 3; 233] /\
  apply_with_cond cfg_fixed [129; 161; 110; 204; 7]
    [ex_set [110] [209; 1; 0]; {| op_kind := 2; op_path := [110]; op_value := [208; 255] |}] None
  = Ok [129; 161; 110; 209; 0; 255].
Proof. vm_compute. split; reflexivity. Qed.
