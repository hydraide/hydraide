(* Swamp/EventsProofs.v — the event model (Swamp/Events.v): the subscription window machine refines
   its specification ([HInv]), the invariant of delivery by concurrent writers ([DInv]), the event
   time; then the witnesses of Props/C19.v and evaluated examples. *)
From HV Require Import Base.Prelude Swamp.Events.
Local Open Scope Z_scope.

Lemma nmem_In : forall c l, nmem c l = true <-> In c l.
Proof.
  intros c l. unfold nmem. rewrite existsb_exists. split.
  - intros [x [H E]]. apply N.eqb_eq in E. subst. exact H.
  - intro H. exists c. split; [exact H|apply N.eqb_refl].
Qed.

Lemma nmem_add : forall c c' l, nmem c (if nmem c' l then l else l ++ [c']) = nmem c l || N.eqb c c'.
Proof.
  intros c c' l. destruct (nmem c' l) eqn:M.
  - destruct (N.eqb_spec c c') as [->|_]; [rewrite M|]; rewrite ?orb_true_r, ?orb_false_r; reflexivity.
  - unfold nmem. rewrite existsb_app. simpl. rewrite orb_false_r. reflexivity.
Qed.

Lemma nodup_add : forall c' l, NoDup l -> NoDup (if nmem c' l then l else l ++ [c']).
Proof.
  intros c' l H. destruct (nmem c' l) eqn:M; [exact H|].
  apply (NoDup_Add (Add_app c' l [])). rewrite app_nil_r, <- nmem_In, M. split; [exact H|discriminate].
Qed.

Lemma nmem_nremove : forall c c' l, nmem c (nremove c' l) = negb (N.eqb c' c) && nmem c l.
Proof.
  intros c c' l. unfold nmem, nremove. induction l as [|x t IH]; simpl; [rewrite andb_false_r; reflexivity|].
  destruct (N.eqb_spec c' x) as [<-|E1]; simpl; rewrite IH.
  - destruct (N.eqb_spec c c') as [->|_]; [rewrite N.eqb_refl|]; reflexivity.
  - destruct (N.eqb_spec c x) as [->|_]; [|reflexivity]. destruct (N.eqb_spec c' x); [contradiction|reflexivity].
Qed.

(* [acc] is the specification's (subscribed, log) for subscriber c. [hi_live]: while a callback is
   registered the hydra has an entry for the swamp (which is why an unsubscribe never switches sending
   off). [hi_nodup]: so that a fan-out reaches each subscriber once. *)
Record HInv (c : N) (s : hst) (acc : bool * list msg) : Prop := {
  hi_sub : nmem c (subs s) = fst acc;
  hi_recv : recv_of c s = snd acc;
  hi_live : forall x, In x (subs s) -> entry s = true /\ (loaded s = true -> active s = true);
  hi_nodup : NoDup (subs s)
}.

Lemma hinv_init : forall c, HInv c h_init (false, []).
Proof. intros. split; simpl; try reflexivity; [intros x []|constructor]. Qed.

Lemma hinv_summon {c s acc} :
  HInv c s acc -> HInv c (summon s) acc /\ loaded (summon s) = true.
Proof.
  intro HI. unfold summon. destruct (loaded s) eqn:L; [split; [exact HI|exact L]|].
  destruct HI as [Hs Hr Hl Hn]. split; [split; simpl; try assumption|reflexivity].
  intros x Hx. split; [apply (Hl x Hx)|]. intros _. destruct (subs s); [destruct Hx|reflexivity].
Qed.

Lemma hinv_post {c s acc} m :
  HInv c s acc ->
  HInv c {| subs := subs s; entry := entry s; loaded := loaded s; active := active s;
            recv := recv s ++ map (fun c' => (c', m)) (subs s) |}
       (fst acc, snd acc ++ if fst acc then [m] else []).
Proof.
  intros [Hs Hr Hl Hn]. split; simpl; try assumption.
  unfold recv_of in *. simpl. rewrite filter_app, map_app, Hr, <- Hs. f_equal.
  clear - Hn. induction Hn as [|x t Hx Hd IH]; simpl; [reflexivity|].
  rewrite (N.eqb_sym x c). destruct (N.eqb_spec c x) as [<-|_]; simpl; [|exact IH].
  rewrite IH. destruct (nmem c t) eqn:M; [|reflexivity]. apply nmem_In in M. contradiction.
Qed.

Lemma hinv_step : forall fixed c s acc x,
  HInv c s acc -> HInv c (hstep_fn fixed s x) (spec_step fixed c acc x).
Proof.
  intros fixed c s acc x HI. pose proof HI as [Hs Hr Hl Hn]. destruct x as [c'|c' others| |k st v now].
  - split; simpl.
    + rewrite nmem_add, Hs, (N.eqb_sym c c'). destruct (N.eqb c' c); simpl; [apply orb_true_r|apply orb_false_r].
    + destruct (N.eqb c' c); exact Hr.
    + intros x _. split; [reflexivity|]. intros L. rewrite L. reflexivity.
    + apply nodup_add, Hn.
  - split; simpl.
    + rewrite nmem_nremove, Hs. destruct (N.eqb c' c); reflexivity.
    + destruct (N.eqb c' c); exact Hr.
    + intros x Hx. apply filter_In in Hx as [Hx _]. destruct (Hl x Hx) as [He Ha]. rewrite He. split; [reflexivity|exact Ha].
    + apply NoDup_filter, Hn.
  - split; simpl; try assumption.
    intros x Hx. split; [apply (Hl x Hx)|discriminate].
  - (* write: after the summon the swamp is loaded, so it is sending if c is subscribed *)
    destruct acc as [b l]. destruct (hinv_summon HI) as [HI1 L].
    simpl. unfold emit, deliver. simpl.
    destruct (is_change st) eqn:C; [|rewrite !andb_false_r; exact HI1].
    rewrite !andb_true_r. pose proof (fun m => hinv_post m HI1) as P. simpl in P.
    destruct (active (summon s)) eqn:A; simpl.
    + rewrite C. destruct b; [apply P|]. rewrite <- (app_nil_r l). apply P.
    + (* not sending: c is not subscribed, or it would be sending *)
      destruct b; [|exact HI1]. pose proof (proj1 (nmem_In _ _) (hi_sub _ _ _ HI1)) as Hc.
      rewrite (proj2 (hi_live _ _ _ HI1 c Hc) L) in A. discriminate A.
Qed.

Lemma hinv_fold : forall fixed c h s acc,
  HInv c s acc -> HInv c (fold_left (hstep_fn fixed) h s) (fold_left (spec_step fixed c) h acc).
Proof.
  intros fixed c h. induction h as [|x t IH]; intros s acc H; simpl; [exact H|].
  apply IH. apply hinv_step. exact H.
Qed.

(* [conv_time true] is timestamppb.New(time.Unix(0, nanos)) *)
Lemma conv_time_exact : forall t,
  ts_nanos (conv_time true t) = t /\ 0 <= snd (conv_time true t) < giga.
Proof.
  intro t. unfold ts_nanos, conv_time. simpl.
  pose proof (Z.div_mod t giga). pose proof (Z.mod_pos_bound t giga). unfold giga in *. lia.
Qed.

Theorem event_time : forall active k s v now e m,
  emit active k s v now = Some e -> deliver true e = Some m ->
  ts_nanos (m_secs m, m_nanos m) = now /\ 0 <= m_nanos m < giga.
Proof.
  intros active k s v now e m E D. unfold emit in E.
  destruct (active && is_change s); [injection E as <-|discriminate].
  unfold deliver in D. simpl in D. destruct (is_change s); [injection D as <-|discriminate].
  exact (conv_time_exact now).
Qed.

(* [di_order]: per key, what was sent followed by what is committed and not yet sent is the commit
   log. [mutex] is the per-subscription mutex around SendMsg. *)
Record DInv (mutex : bool) (s : dst) : Prop := {
  di_order : forall k, of_key k (sent s) ++ pending_of s k = of_key k (clog s);
  di_key : forall k w e, slot s k = Some (w, PCommitted e) -> ev_key e = k;
  di_mutex : mutex = true -> (nsending s <= 1)%nat /\ over s = false
}.

Lemma dinv_init : forall mutex, DInv mutex d_init.
Proof. split; intros; simpl in *; [reflexivity|discriminate|split; [lia|reflexivity]]. Qed.

Lemma of_key_app : forall k a b, of_key k (a ++ b) = of_key k a ++ of_key k b.
Proof. intros. unfold of_key. apply filter_app. Qed.

Lemma of_key_keyed : forall k k' l,
  (forall e, In e l -> ev_key e = k) -> of_key k' l = if N.eqb k k' then l else [].
Proof.
  intros k k' l H. unfold of_key. induction l as [|e t IH]; simpl; [destruct (N.eqb k k'); reflexivity|].
  rewrite (H e (or_introl eq_refl)), IH by (intros; apply H; right; assumption).
  destruct (N.eqb k k'); reflexivity.
Qed.

(* [pending_of s k] of the model is [pend (slot s k)]; [dinv_upd] needs it for the old and the new
   value of one slot *)
Definition pend (v : option (N * phase)) : list event :=
  match v with Some (_, PCommitted e) => [e] | _ => [] end.

Lemma pending_pend : forall s k, pending_of s k = pend (slot s k).
Proof. reflexivity. Qed.

(* The shape every step has: the slot of one key k goes from [old] to [v], [a] is sent, [b] is
   committed. *)
Lemma dinv_upd {mutex s s' k old} v a b :
  DInv mutex s -> slot s k = old ->
  slot s' = set_slot (slot s) k v -> sent s' = sent s ++ a -> clog s' = clog s ++ b ->
  a ++ pend v = pend old ++ b ->
  (forall e, In e (a ++ b ++ pend v) -> ev_key e = k) ->
  (mutex = true -> (nsending s' <= 1)%nat /\ over s' = false) ->
  DInv mutex s'.
Proof.
  intros [Ho Hk _] Sk Es Ea Eb Hab Hkey Hm. split; [| |exact Hm].
  - intro k'. specialize (Ho k'). rewrite pending_pend in *. rewrite Es, Ea, Eb, !of_key_app. unfold set_slot.
    rewrite (of_key_keyed k k' a), (of_key_keyed k k' b) by (intros; apply Hkey; rewrite !in_app_iff; auto).
    rewrite (N.eqb_sym k' k). destruct (N.eqb_spec k k') as [<-|_].
    + rewrite <- app_assoc, Hab, app_assoc. subst old. rewrite Ho. reflexivity.
    + rewrite !app_nil_r. exact Ho.
  - intros k' w e. rewrite Es. unfold set_slot. destruct (N.eqb_spec k' k) as [->|_]; [|apply Hk].
    intros ->. apply Hkey. rewrite !in_app_iff. simpl. auto.
Qed.

Lemma dinv_step : forall mutex s x s', DInv mutex s -> dstep_fn mutex s x = Some s' -> DInv mutex s'.
Proof.
  intros mutex s x s' HI E. pose proof (di_mutex _ _ HI) as Hm.
  destruct x as [w k|w k e|w k|w k|w k]; simpl in E;
    destruct (slot s k) as [[w' [|e0| |]]|] eqn:Sk; try discriminate.
  - (* DBegin, guard free *) injection E as <-.
    apply (dinv_upd (Some (w, PBegun)) [] [] HI Sk); auto using app_nil_end. intros e [].
  - (* DCommit after DBegin *)
    destruct (N.eqb w w' && N.eqb (ev_key e) k) eqn:C; [|discriminate].
    apply andb_true_iff in C as [_ C]. apply N.eqb_eq in C. injection E as <-.
    apply (dinv_upd (Some (w, PCommitted e)) [] [e] HI Sk); auto using app_nil_end.
    intros e' [<-|[<-|[]]]; exact C.
  - (* DSendStart after DCommit; with the mutex nobody else is sending *)
    destruct (N.eqb w w' && (negb mutex || Nat.eqb (nsending s) 0)) eqn:C; [|discriminate].
    apply andb_true_iff in C as [_ C]. injection E as <-.
    apply (dinv_upd (Some (w, PSending)) [e0] [] HI Sk); simpl; auto using app_nil_end.
    + intros e' [<-|[]]. exact (di_key _ _ HI _ _ _ Sk).
    + intros ->. apply Nat.eqb_eq in C. destruct (Hm eq_refl) as [_ Hov]. rewrite C, Hov. split; [lia|reflexivity].
  - (* DSendEnd while sending *) destruct (N.eqb w w'); [|discriminate]. injection E as <-.
    apply (dinv_upd (Some (w, PSent)) [] [] HI Sk); simpl; auto using app_nil_end; [intros e []|].
    intro M. destruct (Hm M). split; [lia|assumption].
  - (* DEnd without a commit *) destruct (N.eqb w w'); [|discriminate]. injection E as <-.
    apply (dinv_upd None [] [] HI Sk); auto using app_nil_end. intros e [].
  - (* DEnd after the send *) destruct (N.eqb w w'); [|discriminate]. injection E as <-.
    apply (dinv_upd None [] [] HI Sk); auto using app_nil_end. intros e [].
Qed.

Lemma dinv_run : forall mutex tr s s', DInv mutex s -> drun mutex s tr = Some s' -> DInv mutex s'.
Proof.
  intros mutex tr. induction tr as [|x t IH]; intros s s' H E; simpl in E.
  - injection E as <-. exact H.
  - destruct (dstep_fn mutex s x) as [s1|] eqn:S; [|discriminate].
    apply (IH _ _ (dinv_step _ _ _ _ H S) E).
Qed.

Lemma reach_dinv : forall mutex tr s, drun mutex d_init tr = Some s -> DInv mutex s.
Proof. intros mutex tr s. apply dinv_run, dinv_init. Qed.

Corollary per_key_order_quiescent : forall mutex tr s k,
  drun mutex d_init tr = Some s -> slot s k = None -> of_key k (sent s) = of_key k (clog s).
Proof.
  intros mutex tr s k E Q. pose proof (di_order _ _ (reach_dinv mutex tr s E) k) as H.
  unfold pending_of in H. rewrite Q, app_nil_r in H. exact H.
Qed.

Theorem sends_not_concurrent : forall tr s,
  drun true d_init tr = Some s -> (nsending s <= 1)%nat /\ over s = false.
Proof. intros tr s E. exact (di_mutex _ _ (reach_dinv true tr s E) eq_refl). Qed.

Definition ev1 : event := {| ev_key := 1; ev_status := StNew; ev_val := 5; ev_time := 7 |}.
Definition ev2 : event := {| ev_key := 2; ev_status := StNew; ev_val := 6; ev_time := 8 |}.
(* two writers on different keys both enter SendMsg *)
Definition two_writers : list dstep :=
  [DBegin 1 1; DBegin 2 2; DCommit 1 1 ev1; DCommit 2 2 ev2; DSendStart 1 1; DSendStart 2 2].

(* the same schedule is not a run of the code with the mutex: the second writer has to wait *)
Example two_writers_blocked_by_mutex : drun true d_init two_writers = None.
Proof. vm_compute. reflexivity. Qed.

Example subscribers_one_after_the_other :
  s_map (srun [SLoad 1; SStore 1; SLoad 2; SStore 2]) = Some [1%N; 2%N].
Proof. vm_compute. reflexivity. Qed.

(* the sticky change flags: subscribe; set k 1 (new); set k 1 again -> a second event *)
Definition sticky_witness : list hstep :=
  [HSub 0; HWrite 0 (save_status true None false 1) 1 0; HWrite 0 (save_status true (Some 1) true 1) 1 0].

Definition ex_hist : list hstep :=
  [HWrite 1 StNew 10 100; HSub 7; HWrite 1 StModified 11 2000000123; HWrite 2 StNew 5 3000000000;
   HWrite 1 StSame 11 4; HSub 8; HWrite 2 StDeleted 5 5; HUnsub 7 false; HUnload;
   HWrite 1 StDeleted 11 6; HWrite 3 StNotFound 0 7].

Example ex_recv7 : map (fun m => (m_key m, m_status m, m_val m, m_secs m, m_nanos m)) (recv_of 7 (hrun true ex_hist))
  = [(1%N, PbUpdated, 11, 2, 123); (2%N, PbNew, 5, 3, 0); (2%N, PbDeleted, 5, 0, 5)].
Proof. vm_compute. reflexivity. Qed.
Example ex_recv8 : map (fun m => (m_key m, m_status m, m_val m)) (recv_of 8 (hrun true ex_hist))
  = [(2%N, PbDeleted, 5); (1%N, PbDeleted, 11)].
Proof. vm_compute. reflexivity. Qed.

Definition ex_trace : list dstep :=
  [DBegin 1 1; DBegin 2 2; DCommit 1 1 ev1; DCommit 2 2 ev2; DSendStart 2 2; DSendEnd 2 2;
   DSendStart 1 1; DEnd 2 2; DSendEnd 1 1; DEnd 1 1; DBegin 2 1;
   DCommit 2 1 {| ev_key := 1; ev_status := StModified; ev_val := 9; ev_time := 9 |}].
Example ex_trace_runs :
  option_map (fun s => (map ev_val (sent s), map ev_val (clog s), map ev_val (pending_of s 1)))
             (drun true d_init ex_trace) = Some ([6; 5], [5; 6; 9], [9]).
Proof. vm_compute. reflexivity. Qed.
