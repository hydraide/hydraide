(* Swamp/ValidateProofs.v — C26, about Swamp/Validate.v: the repaired validation never panics, a
   rejected request with several entries has executed none of them. In between: the request shapes
   [short_shape], [emptykeys_shape], [ok_shape] used by the witnesses in Props/C26.v. *)
From HV Require Import Base.Prelude Swamp.Api Swamp.Validate.
Local Open Scope Z_scope.

(* gateway.checkSwampName does not panic under vcfg_now *)
Lemma check_shape_now sh must_exist with_resp : check_shape vcfg_now sh must_exist with_resp <> PanicAt.
Proof. unfold check_shape. destruct (sh_name sh), (must_exist && negb (sh_exists sh)); discriminate. Qed.

(* the match is written out in the form to which [match .. with Proceed => k | o => o end] of
   Validate.v elaborates, so that the lemma applies to the handlers by unification *)
Lemma after_check (o k : outcome) :
  o <> PanicAt -> k <> PanicAt ->
  match o with Reject e wr => Reject e wr | Proceed => k | PanicAt => PanicAt end <> PanicAt.
Proof. destruct o; auto. Qed.

(* the repaired validation never panics, for every handler and every request shape: checkSwampName
   does not, and no handler adds a panic of its own after it *)
Theorem well_defined_now : forall h sh, validate vcfg_now h sh <> PanicAt.
Proof.
  intros h sh. pose proof (check_shape_now sh) as Hc.
  destruct h; cbn [validate]; try apply Hc.
  - (* Set *) apply after_check; [apply Hc|].
    destruct (sh_kvnil sh), (sh_wkey_empty sh || sh_wkey_long sh); discriminate.
  - (* Get *) apply after_check; [apply Hc|]. destruct (sh_keys sh); discriminate.
  - (* Delete *) destruct (check_shape vcfg_now sh true false) eqn:E; [discriminate..|destruct (Hc _ _ E)].
  - (* IsSwampExist *) specialize (Hc true true).
    destruct (check_shape vcfg_now sh true true) as [[]| |]; [discriminate..|exact Hc].
  - (* Increment *)
    destruct (sh_name sh), (sh_by0 sh), (sh_wkey_empty sh || sh_wkey_long sh); try discriminate; apply Hc.
  - (* Push *) apply after_check; [apply Hc|]. destruct (sh_wkey_empty sh || sh_wkey_long sh); discriminate.
  - (* Register *) destruct (sh_name sh); discriminate.
  - (* DeRegister *) destruct (sh_name sh); discriminate.
  - (* Lock *) destruct (sh_key_empty sh); discriminate.
  - (* Unlock *) destruct (sh_key_empty sh || sh_id_empty sh); discriminate.
Qed.

(* the shapes on which the pinned commit panicked: a short name (every handler that loads the name),
   Keys = [] (Get) *)
Definition short_shape : shape :=
  {| sh_name := NShort; sh_exists := false; sh_keys := KOk; sh_kvnil := false; sh_by0 := false;
     sh_key_empty := false; sh_id_empty := false; sh_wkey_empty := false; sh_wkey_long := false |}.
Definition emptykeys_shape : shape :=
  {| sh_name := NOk; sh_exists := true; sh_keys := KEmptyList; sh_kvnil := false; sh_by0 := false;
     sh_key_empty := false; sh_id_empty := false; sh_wkey_empty := false; sh_wkey_long := false |}.

Definition ok_shape : shape :=
  {| sh_name := NOk; sh_exists := true; sh_keys := KOk; sh_kvnil := false; sh_by0 := false;
     sh_key_empty := false; sh_id_empty := false; sh_wkey_empty := false; sh_wkey_long := false |}.

Example ex_reject : validate vcfg_now HGetAll short_shape = Reject EInvalid false.
Proof. reflexivity. Qed.
Example ex_proceed : validate vcfg_now HGet
  {| sh_name := NOk; sh_exists := true; sh_keys := KOk; sh_kvnil := false; sh_by0 := false; sh_key_empty := false; sh_id_empty := false; sh_wkey_empty := false; sh_wkey_long := false |} = Proceed.
Proof. reflexivity. Qed.

Lemma exec_entries_no_reject h n : existsb is_reject_ret (exec_entries h n) = false.
Proof. unfold exec_entries. induction (seq 0 n) as [|x t IH]; [reflexivity|exact IH]. Qed.

(* Two-pass validation: when the request is answered with a rejection, no entry has been executed -
   whatever the position of the malformed entry - and the system lock is released. *)
Theorem rejected_many_no_side_effect : forall c h shs,
  existsb is_reject_ret (run_many c h shs) = true ->
  existsb is_summon (run_many c h shs) = false /\ existsb is_begin (run_many c h shs) = false /\
  safeops_delta (run_many c h shs) = 0.
Proof.
  intros c h shs H. unfold run_many in *. destruct (validate_many c h shs) as [e wr| |].
  - cbn. repeat split; reflexivity.
  - rewrite !existsb_app, exec_entries_no_reject in H. discriminate H.
  - cbn in H. discriminate.
Qed.
