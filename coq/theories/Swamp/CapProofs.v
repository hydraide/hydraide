(* Swamp/CapProofs.v — the cap invariant of Swamp/Cap.v for every schedule of any number of
   threads (configuration of the current tree) and what the four-cell rule means for it. *)
From HV Require Import Base.Prelude Swamp.Cap.

Lemma nth_upd {A} (l : list A) t x y t' : nth_error l t = Some y ->
  nth_error (upd t x l) t' = if Nat.eqb t' t then Some x else nth_error l t'.
Proof.
  revert t t'; induction l as [|h r IH]; intros [|t] [|t'] H; simpl in *; try discriminate; auto.
Qed.

Lemma matching_app l r : matching (l ++ [r]) = matching l + Nat.b2n (rm r).
Proof. induction l as [|h t IH]; simpl; [unfold Nat.b2n; lia|]. rewrite IH. lia. Qed.

Lemma matching_replace {k r} r' {l} :
  lookup k l = Some r -> matching (replace k r' l) + Nat.b2n (rm r) = matching l + Nat.b2n (rm r').
Proof.
  induction l as [|h t IH]; simpl; [discriminate|].
  destruct (N.eqb (rk h) k); intro H.
  - injection H as ->. unfold Nat.b2n. simpl. lia.
  - simpl. specialize (IH H). lia.
Qed.

Lemma matching_replace_le {k r l} r' :
  lookup k l = Some r -> Nat.b2n (rm r') <= Nat.b2n (rm r) -> matching (replace k r' l) <= matching l.
Proof. intros E H. pose proof (matching_replace r' E). lia. Qed.

Lemma matching_remove k l : matching (remove k l) <= matching l.
Proof.
  induction l as [|h t IH]; simpl; [lia|]. destruct (N.eqb (rk h) k); simpl; lia.
Qed.

Lemma matching_remove_all ks l : matching (remove_all ks l) <= matching l.
Proof.
  revert l; induction ks as [|k t IH]; intro l; simpl; [lia|].
  etransitivity; [apply IH | apply matching_remove].
Qed.

Lemma matching_wstep w l : matching (wstep w l) <= matching l.
Proof.
  destruct w as [k|k x d|k x d]; simpl.
  - apply matching_remove.
  - destruct (lookup k l) as [r|] eqn:E.
    + apply (matching_replace_le _ E). simpl. lia.
    + rewrite matching_app. simpl. lia.
  - destruct (lookup k l) as [r|] eqn:E; [|lia]. apply (matching_replace_le _ E). apply le_n.
Qed.

(* swamp_patch.go, "Cap pre/post check": only the (not matching -> matching) cell looks at the
   budget; there the patch is accepted iff budget is left, and takes one. *)
Lemma four_cell {pre post b ok b'} :
  patch_fields_cap pre post b = (ok, b') ->
  if negb pre && post then ok = negb (b =? 0) /\ b' = pred b else ok = true /\ b' = b.
Proof.
  unfold patch_fields_cap. destruct (negb pre && post); [destruct b|]; intros [= <- <-]; auto.
Qed.

(* what the rule means for the count: an accepted patch pays for the match bit it sets *)
Lemma cap_budget {pre post b ok b'} :
  patch_fields_cap pre post b = (ok, b') ->
  b' <= b /\ (ok = true -> Nat.b2n post + b' <= Nat.b2n pre + b).
Proof.
  intro E. apply four_cell in E. destruct pre, post; simpl in E; destruct E as [-> ->]; simpl; try lia.
  destruct b; simpl; [split; [lia|discriminate]|lia].
Qed.

Lemma patch_item_bound cr it b l rs b' code :
  patch_item cr it b l = (rs, b', code) -> matching rs + b' <= matching l + b.
Proof.
  unfold patch_item. destruct (lookup (ik it) l) as [r|] eqn:E.
  - destruct (iskip it); [intros [= <- <- _]; lia|].
    destruct (patch_fields_cap _ _ b) as [ok b1] eqn:P. apply cap_budget in P as [Hle Hok].
    destruct ok; intros [= <- <- _]; [|lia].
    pose proof (matching_replace {| rk := rk r; rm := if rm r then ipt it else ipf it; rx := rx r; rd := rd r |} E).
    simpl in *. lia.
  - destruct cr; [|intros [= <- <- _]; lia].
    destruct (iskip it); [intros [= <- <- _]; lia|].
    destruct (patch_fields_cap _ _ b) as [ok b1] eqn:P. apply cap_budget in P as [Hle Hok].
    destruct ok; intros [= <- <- _]; [|lia].
    rewrite matching_app. simpl in *. lia.
Qed.

(* the pc lies between taking and releasing capMu *)
Definition holds (p : pc) : bool :=
  match p with
  | PTlocked _ _ | PTrun _ _ _ | PElocked _ _ _ _ | PErun _ _ _ _ | SHlocked _ => true
  | _ => false
  end.

(* the matches the thread may still add: the remaining budget of a PatchTreasures batch, the
   selected and not yet patched keys of PatchExpired *)
Definition pending (p : pc) : nat :=
  match p with PTrun _ _ b => b | PErun sel _ _ _ => length sel | _ => 0 end.

Definition not_counted (p : pc) : Prop := match p with PTcounted _ _ _ => False | _ => True end.

Definition pend_of (s : state) : nat :=
  match capmu s with
  | Some h => match nth_error (thr s) h with Some lo => pending (lpc lo) | None => 0 end
  | None => 0
  end.

(* [I_nc]: a thread parked in PTcounted carries a count taken without capMu, which the bound says
   nothing about; under [cfg_now] (lock, then count) that pc is never entered. *)
Record Inv (c : cfg) (s : state) : Prop := {
  I_bound : matching (recs s) + pend_of s <= cmax c;
  I_hold  : forall t lo, nth_error (thr s) t = Some lo -> holds (lpc lo) = true -> capmu s = Some t;
  I_owner : forall h, capmu s = Some h ->
            exists lo, nth_error (thr s) h = Some lo /\ holds (lpc lo) = true;
  I_nc    : forall t lo, nth_error (thr s) t = Some lo -> not_counted (lpc lo)
}.

Lemma holder_iff {c s t lo} :
  Inv c s -> nth_error (thr s) t = Some lo -> (holds (lpc lo) = true <-> capmu s = Some t).
Proof.
  intros HI Ht. split; [apply (I_hold _ _ HI _ _ Ht)|].
  intro E. destruct (I_owner _ _ HI _ E) as [lo' [Ht' Hh]]. congruence.
Qed.

(* The shape every step has: thread t gets a new pc, and capMu changes hands only from or to t.
   The bound is asked for the new holder: t itself with what it may still add, or whoever held
   capMu before. *)
Lemma inv_mk {c s t lo} rs mu p add :
  Inv c s -> nth_error (thr s) t = Some lo -> not_counted p ->
  (holds p = true <-> mu = Some t) ->
  (forall h, h <> t -> mu = Some h <-> capmu s = Some h) ->
  matching rs + (if holds p then pending p else pend_of s) <= cmax c ->
  Inv c (mk s t rs mu p add).
Proof.
  intros [Ib Ih Io In] Ht Hc Hself Hoth Hm. unfold mk. rewrite Ht.
  constructor; simpl.
  - unfold pend_of at 1; simpl. destruct mu as [h|]; [|destruct (holds p); lia].
    rewrite (nth_upd _ _ _ _ h Ht). destruct (Nat.eqb_spec h t) as [->|Hne]; simpl.
    + rewrite (proj2 Hself eq_refl) in Hm. exact Hm.
    + unfold pend_of in Hm. rewrite (proj1 (Hoth h Hne) eq_refl) in Hm.
      destruct (holds p); [|exact Hm]. destruct Hself as [Hs _]. specialize (Hs eq_refl). congruence.
  - intros t' lo'. rewrite (nth_upd _ _ _ _ t' Ht). destruct (Nat.eqb_spec t' t) as [->|Hne].
    + intros [= <-] Hh'. apply Hself, Hh'.
    + intros H' Hh'. apply Hoth, (Ih _ _ H' Hh'). exact Hne.
  - intros h Hh. rewrite (nth_upd _ _ _ _ h Ht). destruct (Nat.eqb_spec h t) as [->|Hne].
    + eexists. split; [reflexivity|]. apply Hself, Hh.
    + apply Io, Hoth, Hh. exact Hne.
  - intros t' lo'. rewrite (nth_upd _ _ _ _ t' Ht). destruct (Nat.eqb_spec t' t) as [->|Hne].
    + intros [= <-]. exact Hc.
    + apply In.
Qed.

Lemma inv_acquire {c s t lo p add} :
  Inv c s -> nth_error (thr s) t = Some lo -> capmu s = None ->
  holds p = true -> pending p = 0 -> not_counted p ->
  Inv c (mk s t (recs s) (Some t) p add).
Proof.
  intros HI Ht Hfree Hp Hz Hc. pose proof (I_bound _ _ HI).
  apply (inv_mk _ _ _ _ HI Ht Hc); rewrite ?Hp, ?Hfree; [tauto|split; congruence|lia].
Qed.

(* the left side is for the steps that count under the lock and set the budget afresh, the right
   side for the per-record steps, which spend the budget they have *)
Lemma inv_holder {c s t lo rs p add} :
  Inv c s -> nth_error (thr s) t = Some lo -> holds (lpc lo) = true ->
  holds p = true -> not_counted p ->
  (matching rs + pending p <= cmax c \/ matching rs + pending p <= matching (recs s) + pending (lpc lo)) ->
  Inv c (mk s t rs (capmu s) p add).
Proof.
  intros HI Ht Hl Hp Hc Hm. pose proof (I_bound _ _ HI) as Ib.
  apply (holder_iff HI Ht) in Hl. unfold pend_of in Ib. rewrite Hl, Ht in Ib.
  apply (inv_mk _ _ _ _ HI Ht Hc); rewrite ?Hp; [tauto|reflexivity|lia].
Qed.

Lemma inv_release c s t lo rs add :
  Inv c s -> nth_error (thr s) t = Some lo -> holds (lpc lo) = true ->
  matching rs <= matching (recs s) ->
  Inv c (mk s t rs None Done add).
Proof.
  intros HI Ht Hl Hm. pose proof (I_bound _ _ HI).
  apply (holder_iff HI Ht) in Hl.
  apply (inv_mk _ None Done _ HI Ht I); simpl; rewrite ?Hl; [split; discriminate|split; congruence|lia].
Qed.

Lemma free_for_none t s : free_for t s = true -> capmu s = None.
Proof. unfold free_for. destruct (capmu s); [discriminate|reflexivity]. Qed.

Lemma step_inv m t s s' :
  Inv (cfg_now m) s -> step (cfg_now m) t s = Some s' -> Inv (cfg_now m) s'.
Proof.
  intros HI. unfold step. destruct (nth_error (thr s) t) as [[pc res]|] eqn:Ht; [|discriminate].
  pose proof (I_bound _ _ HI) as Hb.
  destruct pc as [p|cr items n|cr items|cr items b|hm post nx nd|sel post nx nd|hm|]; simpl in *.
  - (* Idle: each of the three cap-bearing flows starts by taking the free capMu *)
    destruct p as [cr items|hm post nx nd|hm|w];
      [destruct (free_for t s) eqn:F; [apply free_for_none in F|discriminate];
       intros [= <-]; apply (inv_acquire HI Ht F); reflexivity || exact I .. |].
    (* WR w: an operation without Cap adds no match; neither Idle nor Done holds capMu, so
       [holder_iff] at the old pc is the clause asked for the new one *)
    intros [= <-]. pose proof (matching_wstep w (recs s)).
    apply (inv_mk _ _ Done _ HI Ht I (holder_iff HI Ht)); simpl; [reflexivity|lia].
  - (* PTcounted *) destruct (I_nc _ _ HI _ _ Ht).
  - (* PTlocked: the count under the lock sets the budget *)
    intros [= <-]. apply (inv_holder HI Ht); simpl; auto. left. lia.
  - (* PTrun *) destruct items as [|it r].
    + intros [= <-]. apply (inv_release _ _ _ _ _ _ HI Ht); auto.
    + destruct (patch_item cr it b (recs s)) as [[rs b'] code] eqn:P.
      intros [= <-]. apply (inv_holder HI Ht); simpl; auto. right. exact (patch_item_bound _ _ _ _ _ _ _ P).
  - (* PElocked: count and selection, at most as many keys as the budget *)
    intros [= <-]. apply (inv_holder HI Ht); simpl; auto. left.
    rewrite firstn_length. unfold count_pe. simpl. lia.
  - (* PErun: one selected key is patched; it may now match *)
    destruct sel as [|k r].
    + intros [= <-]. apply (inv_release _ _ _ _ _ _ HI Ht); auto.
    + intros [= <-]. apply (inv_holder HI Ht); simpl; auto. right.
      destruct (lookup k (recs s)) as [r0|] eqn:E; [|lia].
      pose proof (matching_replace {| rk := k; rm := post; rx := nx; rd := nd |} E).
      simpl in *. destruct post; simpl in *; lia.
  - (* SHlocked *) intros [= <-]. apply (inv_release _ _ _ _ _ _ HI Ht); auto using matching_remove_all.
  - (* Done *) discriminate.
Qed.

Lemma init_inv m rs ps : matching rs <= m -> Inv (cfg_now m) (init rs ps).
Proof.
  intro H. constructor; simpl.
  - unfold pend_of; simpl. lia.
  - intros t lo E Hh. apply nth_error_In in E. apply in_map_iff in E as [p [<- _]]. discriminate.
  - intros h E; discriminate.
  - intros t lo E. apply nth_error_In in E. apply in_map_iff in E as [p [<- _]]. exact I.
Qed.

Lemma run_inv m sched : forall s, Inv (cfg_now m) s -> Inv (cfg_now m) (run (cfg_now m) sched s).
Proof.
  induction sched as [|t r IH]; intros s HI; simpl; [assumption|].
  destruct (step (cfg_now m) t s) as [s'|] eqn:E; [apply IH, (step_inv _ _ _ _ HI E) | apply IH, HI].
Qed.

Theorem reach_inv m rs ps sched :
  matching rs <= m -> Inv (cfg_now m) (run (cfg_now m) sched (init rs ps)).
Proof. intro H. apply run_inv, init_inv, H. Qed.

Definition r_ (k : N) (m x d : bool) : rec := {| rk := k; rm := m; rx := x; rd := d |}.
Definition it_ (k : N) (pf pt : bool) : item := {| ik := k; ipf := pf; ipt := pt; ipc := pf; iskip := false |}.

Definition ex_recs : list rec := [r_ 1 false true true; r_ 2 false true true; r_ 3 true false false; r_ 4 false false false].
Definition ex_progs : list prog :=
  [PT true [it_ 1 true true; it_ 4 true true; it_ 9 true true]; PE 5 true true false; SH 1; WR (WDel 3);
   PT false [it_ 2 true true]].

(* a schedule that interleaves all five threads reaches the cap exactly (2 matching of max 2)
   with one patch rejected, so the bound is tight and the hypotheses are satisfiable *)
Example cap_invariant_nonvacuous :
  let s := run (cfg_now 2) [0;0;3;0;0;0;0;1;1;1;1;4;4;4;4;2;2] (init ex_recs ex_progs) in
  matching (recs s) = 2 /\ existsb (fun lo => existsb (fun p => N.eqb (snd p) 9) (lres lo)) (thr s) = true.
Proof. vm_compute. split; reflexivity. Qed.
