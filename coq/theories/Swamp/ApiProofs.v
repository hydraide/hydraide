(* Swamp/ApiProofs.v — C06: [Api.api_step cfg_now] never hangs or panics, and while [Spec.disc] = 0
   along the reference run it equals [Spec.spec_step] ([step_conc]) on the server states [conc_srv t]
   that hold a reference state [t]; the well-formed states of Abs.v are exactly these. What the witness
   histories at the end show is stated in Props/C06.v. *)
From HV Require Import Base.Prelude Swamp.Api Swamp.Spec Swamp.Abs.
Local Open Scope Z_scope.

Definition proper (r : response) : Prop := r <> RHang /\ r <> RPanic /\ r <> RNil.

Definition answers (r : response) : bool :=
  match r with RHang | RPanic | RNil => false | _ => true end.
Lemma answers_proper r : answers r = true -> proper r.
Proof. destruct r; intros H; try discriminate H; repeat split; discriminate. Qed.

Lemma sldel_never_hangs : forall pairs x alive,
  snd (sldel_pairs cfg_now x alive pairs) = false.
Proof.
  induction pairs as [|[k vals] t IH]; intros x alive; cbn [sldel_pairs]; [reflexivity|].
  destruct (aget k (recs x)) as [r|]; [|apply IH].
  cbv zeta. destruct (match sl_size (del_sl r vals) with None => true | Some n => n =? 0 end).
  - cbn [c_hold cfg_now]. apply IH.
  - apply IH.
Qed.

Lemma get_validate_answers : forall l s single r,
  get_validate cfg_now s single l = Some r -> answers r = true.
Proof.
  induction l as [|[sw keys] t IH]; intros s single r H; cbn [get_validate] in H; [discriminate|].
  destruct (check_name s sw single); [injection H as <-; reflexivity|].
  destruct keys as [[|k0 ks]|].
  - injection H as <-. reflexivity.
  - destruct (k0 =? 0); [injection H as <-; reflexivity | exact (IH _ _ _ H)].
  - injection H as <-. reflexivity.
Qed.

(* Once the tests on the way to it are decided every answer is a constructor that [answers] accepts;
   only SliceDelete's hang flag and Get's validation need a fact of their own. *)
Theorem step_returns : forall s q, proper (snd (api_step cfg_now s q)).
Proof.
  intros s q. apply answers_proper. destruct q; cbn [api_step].
  - (* Set *)
    unfold do_set, set_err. destruct (check_name s sw false), kvs as [its|]; try reflexivity.
    destruct (c_keycheck cfg_now && existsb _ its), (negb create && negb over),
      (negb create && negb (exists_sw s sw)), (set_items cfg_now create over (summon s sw) its); reflexivity.
  - (* Get *)
    unfold do_get. destruct (get_validate cfg_now s _ l) eqn:E; [exact (get_validate_answers _ _ _ _ E) | reflexivity].
  - (* GetAll *) destruct (check_name s sw true); reflexivity.
  - (* GetByKeys *) destruct (check_name s sw true); reflexivity.
  - (* Delete *) destruct (check_name s sw true), (del_keys (summon s sw) true keys) as [[? ?] ?]; reflexivity.
  - (* Count *)
    generalize (@nil (Z * Z * bool)). induction sws as [|sw t IH]; intros acc; [reflexivity|].
    destruct (check_name s sw true); [reflexivity | apply IH].
  - (* IsSwampExist *) destruct (check_name s sw true) as [[| |]|]; reflexivity.
  - (* IsKeyExist *) destruct (check_name s sw true); reflexivity.
  - (* AreKeysExist *) destruct (check_name s sw true); reflexivity.
  - (* ShiftByKeys *)
    destruct (check_name s sw true), keys as [|k0 keys]; try reflexivity.
    destruct (shift_keys (summon s sw) (k0 :: keys)). reflexivity.
  - (* Increment *)
    unfold do_inc_swamp.
    destruct (sw =? 0), ((by_ =? 0) || negb (numeric t)), (c_keycheck cfg_now && (k =? 0)); try reflexivity.
    destruct (match ctype_of (r_c (obj_of (summon s sw) k)) with CVoid => _ | CSc t' => _ | CSlice => _ end);
      [|reflexivity].
    destruct (match cond with Some (op, v) => _ | None => true end); [|reflexivity].
    destruct (save cfg_now (summon s sw) k _). reflexivity.
  - (* Push *) destruct (check_name s sw false); [|destruct (c_keycheck cfg_now && existsb _ pairs)]; reflexivity.
  - (* SliceDelete *)
    destruct (check_name s sw false); [reflexivity|].
    pose proof (sldel_never_hangs pairs (summon s sw) true) as Hh.
    destruct (sldel_pairs cfg_now (summon s sw) true pairs) as [[x a] h]. cbn in Hh; subst h. reflexivity.
  - (* Size *)
    destruct (check_name s sw false); [reflexivity|]. cbn.
    destruct (aget k (recs (summon s sw))) as [r|]; [destruct (sl_size r)|]; reflexivity.
  - (* IsValueExist *) destruct (check_name s sw false); [|cbn; destruct (aget k (recs (summon s sw)))]; reflexivity.
  - (* Destroy *) destruct (check_name s sw false); reflexivity.
Qed.

Lemma aget_amap {A B} (f : A -> B) k l : aget k (amap f l) = option_map f (aget k l).
Proof. induction l as [|[k' v] t IH]; cbn; [reflexivity|]. destruct (k =? k'); [reflexivity|exact IH]. Qed.
Lemma ahas_amap {A B} (f : A -> B) k l : ahas k (amap f l) = ahas k l.
Proof. unfold ahas. rewrite aget_amap. destruct (aget k l); reflexivity. Qed.
Lemma aput_amap {A B} (f : A -> B) k v l : amap f (aput k v l) = aput k (f v) (amap f l).
Proof. induction l as [|[k' v'] t IH]; cbn; [reflexivity|]. destruct (k =? k'); cbn; [reflexivity|]. f_equal. exact IH. Qed.
Lemma adel_amap {A B} (f : A -> B) k l : amap f (adel k l) = adel k (amap f l).
Proof. induction l as [|[k' v'] t IH]; cbn; [reflexivity|]. destruct (k =? k'); cbn; [reflexivity|]. f_equal. exact IH. Qed.
Lemma aput_same {A} k (v : A) l : aget k l = Some v -> aput k v l = l.
Proof.
  induction l as [|[k' v'] t IH]; cbn; [discriminate|]. destruct (k =? k') eqn:E.
  - intros H; inversion H; subst. apply Z.eqb_eq in E; subst. reflexivity.
  - intros H. f_equal. apply IH; exact H.
Qed.
Lemma adel_aput {A} k (v : A) l : adel k (aput k v l) = adel k l.
Proof.
  induction l as [|[k' v'] t IH]; cbn; [rewrite Z.eqb_refl; reflexivity|].
  destruct (k =? k') eqn:E; cbn; rewrite ?Z.eqb_refl, ?E; [reflexivity|]. f_equal. exact IH.
Qed.
Lemma aall_aput {A} (f : A -> bool) k v l : aall f l = true -> f v = true -> aall f (aput k v l) = true.
Proof.
  induction l as [|[k' v'] t IH]; cbn; intros H Hv.
  - rewrite Hv; reflexivity.
  - apply andb_true_iff in H as [H1 H2]. destruct (k =? k'); cbn.
    + rewrite Hv; exact H2.
    + rewrite H1. apply IH; assumption.
Qed.
Lemma aall_adel {A} (f : A -> bool) k l : aall f l = true -> aall f (adel k l) = true.
Proof.
  induction l as [|[k' v'] t IH]; cbn; intros H; [reflexivity|].
  apply andb_true_iff in H as [H1 H2]. destruct (k =? k'); cbn; [exact H2|]. rewrite H1. apply IH; exact H2.
Qed.
Lemma aall_aget {A} (f : A -> bool) k v l : aall f l = true -> aget k l = Some v -> f v = true.
Proof.
  induction l as [|[k' v'] t IH]; cbn; intros H G; [discriminate|].
  apply andb_true_iff in H as [H1 H2]. destruct (k =? k'); [inversion G; subst; exact H1 | apply IH; assumption].
Qed.
Lemma amap_nil_iff {A B} (f : A -> B) l : amap f l = [] <-> l = [].
Proof. destruct l; cbn; split; intros H; try reflexivity; discriminate. Qed.
Lemma length_amap {A B} (f : A -> B) l : length (amap f l) = length l.
Proof. apply map_length. Qed.

Lemma ty_eqb_eq a b : ty_eqb a b = true <-> a = b.
Proof.
  unfold ty_eqb. rewrite Z.eqb_eq. split; [|intros ->; reflexivity].
  (* [ty_num] has a left inverse *)
  set (back := fun z => match z with
                        | 1 => TU8 | 2 => TU16 | 3 => TU32 | 4 => TU64 | 5 => TI8 | 6 => TI16 | 7 => TI32
                        | 8 => TI64 | 9 => TF32 | 10 => TF64 | 11 => TStr | 12 => TBool | _ => TBytes
                        end).
  assert (Hb : forall t, back (ty_num t) = t) by (intros []; reflexivity).
  intros H. rewrite <- (Hb a), H. apply Hb.
Qed.
Lemma zlist_eqb_true a : forall b, zlist_eqb a b = true -> a = b.
Proof.
  induction a as [|x s IH]; intros [|y t] H; try discriminate H; [reflexivity|].
  cbn in H. apply andb_true_iff in H as [H1 H2]. apply Z.eqb_eq in H1. rewrite H1, (IH t H2). reflexivity.
Qed.
Lemma sval_eqb_true a b : sval_eqb a b = true -> a = b.
Proof.
  destruct a as [|t z|l], b as [|t' z'|l']; cbn; intros H; try discriminate H; [reflexivity| |].
  - apply andb_true_iff in H as [H1 H2]. apply ty_eqb_eq in H1. apply Z.eqb_eq in H2. congruence.
  - f_equal. apply zlist_eqb_true; exact H.
Qed.
Lemma meta_eqb_eq a b : meta_eqb a b = true <-> a = b.
Proof.
  destruct a, b; unfold meta_eqb; cbn. split.
  - intros H. apply andb_true_iff in H as [H E5]. apply andb_true_iff in H as [H E4].
    apply andb_true_iff in H as [H E3]. apply andb_true_iff in H as [E1 E2].
    apply Z.eqb_eq in E1, E2, E3, E4, E5. congruence.
  - intros H; inversion H; subst. rewrite !Z.eqb_refl. reflexivity.
Qed.
Lemma meta_given_false m : meta_given m = false -> m = meta0.
Proof. unfold meta_given. intros H. apply negb_false_iff in H. apply meta_eqb_eq; exact H. Qed.
Lemma merge_meta0 o : merge_meta o meta0 = o.
Proof. destruct o; reflexivity. Qed.

(* keyValuesToTreasure's metadata part is five steps of this shape *)
Definition supply (keep : bool) (set : meta -> meta) (r : rec) : rec :=
  if keep then r else upd_meta r (set (r_meta r)).

Lemma supply_all (t1 t2 t3 t4 t5 : bool) r m :
  supply t5 (fun o => {| m_cat := m_cat o; m_cby := m_cby o; m_mat := m_mat o; m_mby := m_mby o; m_exp := m_exp m |})
 (supply t4 (fun o => {| m_cat := m_cat o; m_cby := m_cby o; m_mat := m_mat o; m_mby := m_mby m; m_exp := m_exp o |})
 (supply t3 (fun o => {| m_cat := m_cat o; m_cby := m_cby o; m_mat := m_mat m; m_mby := m_mby o; m_exp := m_exp o |})
 (supply t2 (fun o => {| m_cat := m_cat o; m_cby := m_cby m; m_mat := m_mat o; m_mby := m_mby o; m_exp := m_exp o |})
 (supply t1 (fun o => {| m_cat := m_cat m; m_cby := m_cby o; m_mat := m_mat o; m_mby := m_mby o; m_exp := m_exp o |}) r))))
  = {| r_c := r_c r;
       r_meta := {| m_cat := if t1 then m_cat (r_meta r) else m_cat m;
                    m_cby := if t2 then m_cby (r_meta r) else m_cby m;
                    m_mat := if t3 then m_mat (r_meta r) else m_mat m;
                    m_mby := if t4 then m_mby (r_meta r) else m_mby m;
                    m_exp := if t5 then m_exp (r_meta r) else m_exp m |};
       r_dirty := r_dirty r || negb (t1 && t2 && t3 && t4 && t5) |}.
Proof.
  destruct r as [c [a1 a2 a3 a4 a5] d], t1, t2, t3, t4, t5; cbn; rewrite ?orb_true_r, ?orb_false_r; reflexivity.
Qed.

(* [apply_meta] is that chain by conversion. Stated on the chain because any tactic that touches the
   unfolded [apply_meta] expands its nested lets, each used six times by the next, into a term over a
   thousand times the size. *)
Lemma apply_meta_eq r m :
  apply_meta r m =
  {| r_c := r_c r; r_meta := merge_meta (r_meta r) m; r_dirty := r_dirty r || meta_given m |}.
Proof. exact (supply_all (m_cat m =? 0) (m_cby m =? 0) (m_mat m =? 0) (m_mby m =? 0) (m_exp m =? 0) r m). Qed.

Definition rec_of (v : sval) (m : meta) (d : bool) : rec :=
  {| r_c := Some match v with
                 | SVoid => {| c_void := true; c_sc := None; c_sl := None |}
                 | SSc t z => {| c_void := false; c_sc := Some (t, z); c_sl := None |}
                 | SSl l => {| c_void := false; c_sc := None; c_sl := Some l |}
                 end;
     r_meta := m; r_dirty := d |}.

Lemma apply_meta_rec_of v o d m :
  apply_meta (rec_of v o d) m = rec_of v (merge_meta o m) (d || meta_given m).
Proof. apply apply_meta_eq. Qed.
Lemma opt_meta_rec_of v o d i :
  opt_meta (rec_of v o d) i =
  rec_of v (match i with Some i => merge_meta o (imeta_to_meta i) | None => o end)
           (match i with Some i => d || meta_given (imeta_to_meta i) | None => d end).
Proof. destruct i; [apply apply_meta_eq | reflexivity]. Qed.

Lemma set_sc_rec_of v m d t z :
  set_sc (rec_of v m d) t z = rec_of (SSc t z) m (d || negb (sval_eqb (SSc t z) v)).
Proof.
  unfold set_sc. destruct v as [|t' z'|l]; cbn; rewrite ?orb_true_r; try reflexivity.
  destruct (ty_eqb t t' && (z =? z')) eqn:E; cbn; rewrite ?orb_true_r; [|reflexivity].
  apply andb_true_iff in E as [E1 E2]. apply ty_eqb_eq in E1. apply Z.eqb_eq in E2. subst.
  rewrite orb_false_r. reflexivity.
Qed.

(* the hypothesis is [disc_set_item] = 0 *)
Lemma apply_val_rec_of vo m v :
  match v with SVVoid => match vo with SVoid => 0 | _ => 1 end | SVSl _ => 2 | SVSc _ _ => 0 end = 0 ->
  apply_val (rec_of vo m false) v = rec_of (sval_of_set v) m (negb (sval_eqb (sval_of_set v) vo)).
Proof.
  destruct v as [|t z|l]; [|intros _; apply (set_sc_rec_of vo m false)|discriminate].
  destruct vo; [reflexivity|discriminate..].
Qed.
Lemma apply_val_fresh v : exists d, apply_val fresh_rec v = rec_of (sval_of_set v) meta0 d.
Proof. destruct v; eexists; reflexivity. Qed.

Definition crec (r : srec) : rec := rec_of (s_val r) (s_meta r) false.
Definition conc (y : sswamp) : swamp := {| recs := amap crec y; infl := [] |}.
Definition conc_srv (t : sstate) : srv := amap conc t.

Lemma amap_retract {A B} (f : A -> B) (g : B -> A) (P : A -> bool) l :
  (forall v, P v = true -> g (f v) = v) -> aall P l = true -> amap g (amap f l) = l.
Proof.
  intros Hg. unfold amap. induction l as [|[k v] t IH]; cbn; intros H; [reflexivity|].
  apply andb_true_iff in H as [H1 H2]. rewrite (Hg v H1), (IH H2). reflexivity.
Qed.
Lemma aall_amap {A B} (f : A -> B) (P : B -> bool) l : (forall v, P (f v) = true) -> aall P (amap f l) = true.
Proof. intros H. induction l as [|[k v] t IH]; cbn; [reflexivity|]. rewrite H. exact IH. Qed.
Lemma aall_true {A} (l : list (Z * A)) : aall (fun _ => true) l = true.
Proof. apply forallb_forall. reflexivity. Qed.

Lemma abs_crec r : abs_rec (crec r) = r.
Proof. destruct r as [[] m]; reflexivity. Qed.
Lemma wf_crec r : wf_rec (crec r) = true.
Proof. destruct r as [[] m]; reflexivity. Qed.
Lemma crec_abs r : wf_rec r = true -> crec (abs_rec r) = r.
Proof.
  destruct r as [[[cv cs cl]|] m []]; try discriminate. unfold wf_rec; cbn.
  destruct cv, cs as [[t z]|], cl; try discriminate; reflexivity.
Qed.

Lemma abs_conc y : abs_swamp (conc y) = y.
Proof. exact (amap_retract crec abs_rec _ y (fun r _ => abs_crec r) (aall_true y)). Qed.
Lemma wf_conc y : wf_swamp (conc y) = true.
Proof. exact (aall_amap crec wf_rec y wf_crec). Qed.
Lemma conc_abs x : wf_swamp x = true -> conc (abs_swamp x) = x.
Proof.
  destruct x as [rs [|]]; [|discriminate]. intros H. unfold conc, abs_swamp; cbn [recs].
  f_equal. exact (amap_retract abs_rec crec wf_rec rs crec_abs H).
Qed.
Lemma abs_conc_srv t : abs (conc_srv t) = t.
Proof. exact (amap_retract conc abs_swamp _ t (fun y _ => abs_conc y) (aall_true t)). Qed.
Lemma wf_conc_srv t : wf (conc_srv t) = true.
Proof. exact (aall_amap conc wf_swamp t wf_conc). Qed.
Lemma conc_srv_abs s : wf s = true -> conc_srv (abs s) = s.
Proof. exact (amap_retract abs_swamp conc wf_swamp s conc_abs). Qed.

Lemma aget_conc y k : aget k (recs (conc y)) = option_map crec (aget k y).
Proof. apply aget_amap. Qed.
Lemma ahas_conc y k : ahas k (recs (conc y)) = ahas k y.
Proof. apply ahas_amap. Qed.
Lemma conc_nil {T} y (a b : T) :
  match recs (conc y) with [] => a | _ => b end = match y with [] => a | _ => b end.
Proof. destruct y; reflexivity. Qed.
Lemma conc_adel y k : {| recs := adel k (recs (conc y)); infl := infl (conc y) |} = conc (adel k y).
Proof. unfold conc; cbn [recs infl]. rewrite adel_amap. reflexivity. Qed.

Lemma obj_of_conc y k : obj_of (conc y) k = match aget k y with Some r => crec r | None => fresh_rec end.
Proof. unfold obj_of. rewrite aget_conc. destruct (aget k y); reflexivity. Qed.
Lemma keep_unsaved_conc y k v m :
  aget k y = Some {| s_val := v; s_meta := m |} -> keep_unsaved (conc y) k (rec_of v m false) = conc y.
Proof.
  intros E. unfold keep_unsaved. rewrite ahas_conc. unfold ahas. rewrite E.
  unfold conc; cbn [recs infl]. rewrite aput_same; [reflexivity|]. rewrite aget_amap, E. reflexivity.
Qed.

Lemma save_conc y k v m d :
  save cfg_now (conc y) k (rec_of v m d) =
  (conc (aput k {| s_val := v; s_meta := m |} y),
   if ahas k y then if d then StUpdated else StNothing else StNew).
Proof.
  unfold save. rewrite ahas_conc. unfold conc; cbn [recs infl r_dirty rec_of]. rewrite aput_amap.
  destruct (ahas k y); [destruct d|]; reflexivity.
Qed.

Lemma view_abs k r : view_of k r = sview k (abs_rec r).
Proof.
  unfold view_of, sview, abs_rec, sval_of, ctype_of, sl_all; cbn.
  destruct (r_c r) as [c|]; [|reflexivity].
  destruct (c_void c); [reflexivity|]. destruct (c_sc c) as [[t z]|]; [reflexivity|].
  destruct (c_sl c); reflexivity.
Qed.
(* Clone picks the content by another order than GetContentType; with one form of content they agree *)
Lemma view_clone_crec k r : view_of k (clone_rec (crec r)) = sview k r.
Proof. destruct r as [[] m]; reflexivity. Qed.

Lemma get_views_abs x keys : get_views x keys = s_get_views (abs_swamp x) keys.
Proof.
  unfold get_views, s_get_views, abs_swamp. apply map_ext. intros k. rewrite aget_amap.
  destruct (aget k (recs x)); cbn; [apply view_abs | reflexivity].
Qed.
Lemma views_of_keys_abs x keys :
  views_of_keys x keys = flat_map (fun k => match aget k (abs_swamp x) with Some r => [sview k r] | None => [] end) keys.
Proof.
  unfold views_of_keys, abs_swamp. induction keys as [|k t IH]; cbn; [reflexivity|]. rewrite IH, aget_amap.
  destruct (aget k (recs x)); cbn; [rewrite view_abs|]; reflexivity.
Qed.
Lemma all_views_abs x : all_views x = map (fun p => sview (fst p) (snd p)) (abs_swamp x).
Proof.
  unfold all_views, abs_swamp, amap. rewrite map_map. apply map_ext. intros [k r]; cbn. apply view_abs.
Qed.

Definition with_recs (x : swamp) (l : list (Z * rec)) : swamp := {| recs := l; infl := infl x |}.

Lemma del_keys_conc : forall keys y a,
  del_keys (conc y) a keys = let '(y', a', os) := s_del_keys y a keys in (conc y', a', os).
Proof.
  induction keys as [|k t IH]; intros y a; cbn [del_keys s_del_keys]; [reflexivity|].
  rewrite ahas_conc. destruct (ahas k y).
  - rewrite conc_adel, conc_nil, IH. destruct (s_del_keys (adel k y) _ t) as [[y2 a2] os]. reflexivity.
  - rewrite IH. destruct (s_del_keys y a t) as [[y2 a2] os]. reflexivity.
Qed.

Lemma shift_keys_conc : forall keys y,
  shift_keys (conc y) keys = let '(y', vs) := s_shift_keys y keys in (conc y', vs).
Proof.
  induction keys as [|k t IH]; intros y; cbn [shift_keys s_shift_keys]; [reflexivity|].
  rewrite aget_conc. destruct (aget k y) as [r|]; cbn [option_map]; [|apply IH].
  rewrite conc_adel, IH, view_clone_crec. destruct (s_shift_keys (adel k y) t) as [y2 vs]. reflexivity.
Qed.

Lemma set_item_conc create over y it :
  disc_set_item create over y it = 0 -> disc_set_meta create over y it = 0 ->
  set_item cfg_now create over (conc y) it = let '(y', o) := s_set_item create over y it in (conc y', o).
Proof.
  intros D1 D2. destruct it as [k v m].
  unfold set_item, s_set_item, disc_set_item, disc_set_meta in *; cbn [kv_key kv_val kv_meta] in *.
  rewrite ahas_conc, obj_of_conc. unfold ahas.
  destruct (aget k y) as [[vo mo]|] eqn:E; cbn [s_val s_meta] in *.
  - rewrite andb_false_r. destruct over; cbn [negb andb] in *; [|reflexivity].
    unfold crec; cbn [s_val s_meta].
    rewrite (apply_val_rec_of vo mo v D1), apply_meta_rec_of, save_conc. unfold ahas. rewrite E.
    destruct (sval_eqb (sval_of_set v) vo) eqn:Ev; cbn [negb orb andb] in *; [|reflexivity].
    destruct (meta_given m) eqn:Em; cbn [andb] in D2.
    + (* metadata supplied: inside the specified inputs it differs *)
      destruct (meta_eqb (merge_meta mo m) mo); [discriminate|reflexivity].
    + (* same value, nothing supplied: untouched *)
      apply meta_given_false in Em. subst m. rewrite merge_meta0, (proj2 (meta_eqb_eq mo mo) eq_refl).
      rewrite (sval_eqb_true _ _ Ev), (aput_same k _ _ E). reflexivity.
  - rewrite andb_true_r, andb_false_r. destruct create; cbn [negb]; [|reflexivity].
    destruct (apply_val_fresh v) as [d ->]. rewrite apply_meta_rec_of, save_conc. unfold ahas. rewrite E.
    reflexivity.
Qed.

Lemma first_nonzero d e : (if negb (d =? 0) then d else e) = 0 -> d = 0 /\ e = 0.
Proof. destruct (Z.eqb_spec d 0); cbn; [auto|contradiction]. Qed.

Lemma set_items_conc create over : forall its y,
  disc_set_items create over y its = 0 ->
  set_items cfg_now create over (conc y) its =
  let '(y', os) := s_set_items create over y its in (conc y', os).
Proof.
  induction its as [|it t IH]; intros y D; cbn [set_items s_set_items disc_set_items] in *; [reflexivity|].
  apply first_nonzero in D as [D1 D]. apply first_nonzero in D as [D2 D].
  rewrite (set_item_conc _ _ _ _ D1 D2). destruct (s_set_item create over y it) as [y1 o]. cbn [fst] in D.
  rewrite (IH _ D). destruct (s_set_items create over y1 t) as [y2 os]. reflexivity.
Qed.

Lemma push_conc y k vals :
  is_slice_or_absent y k = true ->
  fst (save cfg_now (conc y) k (push_sl (obj_of (conc y) k) vals)) = conc (s_push y k vals).
Proof.
  intros H. unfold is_slice_or_absent, s_push in *. rewrite obj_of_conc.
  destruct (aget k y) as [[[| |l] m]|]; try discriminate H.
  (* Uint32SlicePush on a stored slice, or on a new record, computes to a [rec_of (SSl _)] *)
  - exact (f_equal fst (save_conc y k (SSl _) m _)).
  - exact (f_equal fst (save_conc y k (SSl _) meta0 _)).
Qed.

Lemma push_pairs_conc : forall pairs y,
  disc_push y pairs = 0 -> push_pairs cfg_now (conc y) pairs = conc (s_push_pairs y pairs).
Proof.
  induction pairs as [|[k vals] t IH]; intros y D; cbn [push_pairs s_push_pairs disc_push] in *; [reflexivity|].
  destruct (is_slice_or_absent y k) eqn:E; [|discriminate]. rewrite (push_conc y k vals E). exact (IH _ D).
Qed.

Lemma sldel_pairs_conc : forall pairs y a,
  disc_sldel y pairs = 0 ->
  sldel_pairs cfg_now (conc y) a pairs = let '(y', a') := s_sldel_pairs y a pairs in (conc y', a', false).
Proof.
  induction pairs as [|[k vals] t IH]; intros y a D; cbn [sldel_pairs s_sldel_pairs disc_sldel] in *; [reflexivity|].
  destruct (is_slice_or_absent y k) eqn:Es; [|discriminate].
  unfold is_slice_or_absent in Es. rewrite aget_conc.
  destruct (aget k y) as [[[| |l] m]|]; cbn [option_map s_val s_meta fst] in *; try discriminate Es; [|exact (IH _ _ D)].
  (* Uint32SliceDelete on a stored slice: changed iff a value is kept *)
  change (del_sl (crec _) vals) with
    (let keep := filter (fun v => negb (zmem v vals)) l in rec_of (SSl keep) m match keep with [] => false | _ => true end).
  cbv zeta. rewrite save_conc. cbn [fst sl_size rec_of r_c c_sl].
  destruct (filter (fun v => negb (zmem v vals)) l) as [|v0 keep].
  - (* emptied: the record goes, and with the last record the swamp *)
    cbn [length Z.of_nat Z.eqb c_hold cfg_now]. rewrite conc_adel, adel_aput, conc_nil. exact (IH _ _ D).
  - exact (IH _ _ D).
Qed.

Lemma inc_conc y t k by_ cond ne e :
  disc_inc y t k cond e = 0 ->
  do_inc_swamp cfg_now (conc y) t k by_ cond ne e = let '(y', r) := s_inc y t k by_ cond ne e in (conc y', r).
Proof.
  intros D. unfold do_inc_swamp, s_inc, disc_inc in *. rewrite obj_of_conc.
  destruct (aget k y) as [[[|t' z|l] m]|] eqn:E; unfold crec; cbn [s_val s_meta rec_of r_c ctype_of c_void c_sc c_sl fresh_rec] in *.
  - (* Void: set to 0 with the SetIfNotExist metadata, before the condition is looked at *)
    rewrite (set_sc_rec_of SVoid m false t 0), opt_meta_rec_of, set_sc_rec_of.
    cbn [sc_val rec_of r_c c_sc r_meta].
    destruct (match cond with Some (op, v) => cond_holds op 0 (wrap t v) | None => true end) eqn:Ec.
    + rewrite save_conc. reflexivity.
    + destruct cond as [[op v]|]; [rewrite Ec in D|]; discriminate.
  - destruct (ty_eqb t t') eqn:Et.
    + (* a counter of this type: the SetIfExist metadata, before the condition is looked at *)
      apply ty_eqb_eq in Et; subst t'. rewrite (opt_meta_rec_of (SSc t z)), set_sc_rec_of.
      cbn [sc_val rec_of r_c c_sc r_meta].
      destruct (match cond with Some (op, v) => cond_holds op z (wrap t v) | None => true end) eqn:Ec.
      * rewrite save_conc. reflexivity.
      * destruct cond as [[op v]|]; [rewrite Ec in D|discriminate]. destruct e; [discriminate|]. cbv iota.
        rewrite (keep_unsaved_conc y k _ _ E). reflexivity.
    + rewrite (keep_unsaved_conc y k (SSc t' z) m E). reflexivity.
  - rewrite (keep_unsaved_conc y k (SSl l) m E). reflexivity.
  - (* absent key: as for Void, on a new record *)
    change (set_sc _ t 0) with (rec_of (SSc t 0) meta0 true).
    rewrite opt_meta_rec_of, set_sc_rec_of. cbn [sc_val rec_of r_c c_sc r_meta].
    destruct (match cond with Some (op, v) => cond_holds op 0 (wrap t v) | None => true end) eqn:Ec.
    + rewrite save_conc. reflexivity.
    + destruct cond as [[op v]|]; [rewrite Ec in D|]; discriminate.
Qed.

Lemma exists_conc t sw : exists_sw (conc_srv t) sw = s_exists t sw.
Proof. apply ahas_amap. Qed.
Lemma check_conc t sw b : check_name (conc_srv t) sw b = s_check t sw b.
Proof. unfold s_check, check_name. rewrite exists_conc. reflexivity. Qed.
Lemma summon_conc t sw : summon (conc_srv t) sw = conc (s_summon t sw).
Proof. unfold s_summon, summon, conc_srv. rewrite aget_amap. destruct (aget sw t); reflexivity. Qed.
Lemma commit_conc t sw y a : commit (conc_srv t) sw (conc y) a = conc_srv (s_commit t sw y a).
Proof. unfold commit, s_commit, conc_srv. destruct a; [rewrite aput_amap | rewrite adel_amap]; reflexivity. Qed.

Lemma get_validate_conc l t single :
  get_validate cfg_now (conc_srv t) single l = s_get_validate t single l.
Proof.
  induction l as [|[sw keys] l IH]; cbn; [reflexivity|]. rewrite check_conc.
  destruct (s_check t sw single); [reflexivity|]. destruct keys as [[|k0 ks]|]; try reflexivity.
  destruct (k0 =? 0); [reflexivity | exact IH].
Qed.

Theorem step_conc t q :
  disc t q = 0 -> api_step cfg_now (conc_srv t) q = let '(t', r) := spec_step t q in (conc_srv t', r).
Proof.
  intros D. destruct q; cbn [api_step spec_step disc] in D |- *; rewrite ?check_conc, ?summon_conc.
  - (* Set *)
    unfold do_set. rewrite check_conc, exists_conc, summon_conc. unfold s_check.
    destruct (sw =? 0); [reflexivity|]. cbn [andb].
    destruct kvs as [its|]; [|reflexivity].
    cbn [set_err cfg_now c_dupset c_keycheck andb].
    destruct (existsb (fun it => kv_key it =? 0) its); [reflexivity|].
    destruct (negb create && negb over); [reflexivity|].
    destruct (negb create && negb (s_exists t sw)); [reflexivity|].
    rewrite (set_items_conc _ _ _ _ D). destruct (s_set_items create over (s_summon t sw) its) as [y os].
    rewrite commit_conc. reflexivity.
  - (* Get *)
    unfold do_get. rewrite get_validate_conc.
    destruct (s_get_validate t _ l); [reflexivity|].
    f_equal. f_equal. apply map_ext. intros [sw ks]; cbn [fst snd].
    unfold conc_srv. rewrite aget_amap. destruct (aget sw t); cbn; [rewrite get_views_abs, abs_conc|]; reflexivity.
  - (* GetAll *)
    destruct (s_check t sw true); [reflexivity|].
    rewrite all_views_abs, abs_conc. reflexivity.
  - (* GetByKeys *)
    destruct (s_check t sw true); [reflexivity|].
    rewrite views_of_keys_abs, abs_conc. reflexivity.
  - (* Delete *)
    destruct (s_check t sw true); [reflexivity|].
    rewrite del_keys_conc. destruct (s_del_keys (s_summon t sw) true keys) as [[y a] os].
    rewrite commit_conc. reflexivity.
  - (* Count *)
    generalize (@nil (Z * Z * bool)). induction sws as [|sw sws IH]; intros acc; [reflexivity|].
    rewrite check_conc. destruct (s_check t sw true); [reflexivity|].
    rewrite summon_conc. cbn [conc recs]. rewrite length_amap. apply IH.
  - (* IsSwampExist *)
    destruct (s_check t sw true) as [[| |]|]; reflexivity.
  - (* IsKeyExist *)
    destruct (s_check t sw true); [reflexivity|].
    rewrite ahas_conc. reflexivity.
  - (* AreKeysExist *)
    destruct (s_check t sw true); [reflexivity|].
    f_equal. f_equal. apply map_ext. intros k. rewrite ahas_conc. reflexivity.
  - (* ShiftByKeys *)
    destruct (s_check t sw true); [reflexivity|].
    destruct keys as [|k0 keys]; [reflexivity|].
    rewrite shift_keys_conc. destruct (s_shift_keys (s_summon t sw) (k0 :: keys)) as [y vs].
    rewrite conc_nil, commit_conc. reflexivity.
  - (* Increment *)
    destruct (sw =? 0); [reflexivity|]. cbn [orb cfg_now c_keycheck andb] in *.
    destruct ((by_ =? 0) || negb (numeric _)); [reflexivity|].
    destruct (k =? 0); [reflexivity|].
    rewrite (inc_conc _ _ _ _ _ _ _ D). destruct (s_inc (s_summon t sw) _ k by_ cond ne e) as [y r].
    rewrite commit_conc. reflexivity.
  - (* Push *)
    unfold s_check in *. destruct (sw =? 0); [reflexivity|].
    cbn [andb cfg_now c_keycheck c_pushnil].
    destruct (existsb (fun p => fst p =? 0) pairs); [reflexivity|].
    rewrite (push_pairs_conc _ _ D), commit_conc. reflexivity.
  - (* SliceDelete *)
    unfold s_check in *. destruct (sw =? 0); [reflexivity|]. cbn [andb].
    rewrite (sldel_pairs_conc _ _ _ D). destruct (s_sldel_pairs (s_summon t sw) true pairs) as [y a].
    rewrite commit_conc. reflexivity.
  - (* Size *)
    destruct (s_check t sw false); [reflexivity|].
    cbv zeta. rewrite commit_conc, aget_conc.
    destruct (aget k (s_summon t sw)) as [[[] m]|]; reflexivity.
  - (* IsValueExist *)
    destruct (s_check t sw false); [reflexivity|].
    cbv zeta. rewrite commit_conc, aget_conc.
    destruct (aget k (s_summon t sw)) as [[[] m]|]; reflexivity.
  - (* Destroy *)
    destruct (s_check t sw false); [reflexivity|].
    unfold conc_srv. rewrite adel_amap. reflexivity.
Qed.

Theorem wf_clean s q : wf s = true -> clean s q = true.
Proof.
  intros H. rewrite <- (conc_srv_abs s H). unfold clean. destruct (sensitive_keys q) as [[sw ks]|]; [|reflexivity].
  apply forallb_forall. intros k _. rewrite summon_conc. unfold tainted. rewrite aget_conc.
  destruct (aget k (s_summon (abs s) sw)) as [r|]; cbn [option_map]; [rewrite wf_crec|]; reflexivity.
Qed.

Fixpoint disciplined (t : sstate) (qs : list request) : bool :=
  match qs with
  | [] => true
  | q :: rest => (disc t q =? 0) && disciplined (fst (spec_step t q)) rest
  end.

Theorem run_conc : forall qs t,
  disciplined t qs = true ->
  api_run cfg_now (conc_srv t) qs = let '(t', rs) := spec_run t qs in (conc_srv t', rs).
Proof.
  induction qs as [|q qs IH]; intros t D; cbn [api_run spec_run disciplined] in *; [reflexivity|].
  apply andb_true_iff in D as [D1 D2]. apply Z.eqb_eq in D1.
  rewrite (step_conc t q D1). destruct (spec_step t q) as [t1 r]. cbn [fst] in D2.
  rewrite (IH t1 D2). destruct (spec_run t1 qs) as [t2 rs]. reflexivity.
Qed.

(* create, overwrite, increment (wrap-around, failing condition), push, delete down to an empty swamp,
   re-create *)
Definition kv1 (k : Z) (v : setval) : kv := {| kv_key := k; kv_val := v; kv_meta := meta0 |}.
Definition ex_history : list request :=
  [ QSet 1 true true (Some [kv1 1 (SVSc TI64 5); kv1 2 (SVSc TU8 255)]);
    QSet 1 true true (Some [kv1 1 (SVSc TI64 5)]);
    QSet 1 true true (Some [{| kv_key := 1; kv_val := SVSc TI64 6;
                               kv_meta := {| m_cat := 3; m_cby := 7; m_mat := 0; m_mby := 0; m_exp := 0 |} |}]);
    QInc TU8 1 2 1 None None None;
    QInc TU8 1 2 1 (Some (1, 5)) None None;
    QPush 1 [(3, [1; 2; 2])];
    QSlDel 1 [(3, [1])];
    QGet [(1, Some [1; 2; 3; 4])];
    QShiftByKeys 1 [1; 2];
    QSlDel 1 [(3, [2])];
    QIsSwampExist 1;
    QSet 1 true false (Some [kv1 1 SVVoid]);
    QGetAll 1 ].
Example ex_history_disciplined :
  disciplined sstate0 ex_history = true /\
  snd (api_run cfg_now srv0 ex_history) =
  [ RSet [(None, [(1, StNew); (2, StNew)])];
    RSet [(None, [(1, StNothing)])];
    RSet [(None, [(1, StUpdated)])];
    RInc 0 true None;
    RInc 0 false None;
    ROk; ROk;
    RGet [(true, [ {| v_key := 1; v_exist := true; v_sc := Some (TI64, 6); v_sl := [];
                      v_meta := {| m_cat := 3; m_cby := 7; m_mat := 0; m_mby := 0; m_exp := 0 |} |};
                   {| v_key := 2; v_exist := true; v_sc := Some (TU8, 0); v_sl := []; v_meta := meta0 |};
                   {| v_key := 3; v_exist := true; v_sc := None; v_sl := [2]; v_meta := meta0 |};
                   view_missing 4 ])];
    RViews [ {| v_key := 1; v_exist := true; v_sc := Some (TI64, 6); v_sl := [];
                v_meta := {| m_cat := 3; m_cby := 7; m_mat := 0; m_mby := 0; m_exp := 0 |} |};
             {| v_key := 2; v_exist := true; v_sc := Some (TU8, 0); v_sl := []; v_meta := meta0 |} ];
    ROk;
    RBool false;
    RSet [(None, [(1, StNew)])];
    RViews [ {| v_key := 1; v_exist := true; v_sc := None; v_sl := []; v_meta := meta0 |} ] ].
Proof. vm_compute. split; reflexivity. Qed.

Definition differ_at (a b : list response) (i : nat) (x y : response) : Prop :=
  nth_error a i = Some x /\ nth_error b i = Some y /\ x <> y.

(* one witness per excluded input class of [Spec.disc]: 1 Set Void over a value, 2 Set a slice over an
   existing key, 3 slice delete on a non-slice value, 4 Increment with an unmet condition on an absent
   key, 5 Set re-supplying identical metadata *)
Definition w_class1 := [ QSet 1 true true (Some [kv1 1 (SVSc TI64 1)]); QSet 1 true true (Some [kv1 1 SVVoid]); QGet [(1, Some [1])] ].
Definition w_class2 := [ QPush 1 [(1, [1])]; QSet 1 true true (Some [kv1 1 (SVSl [2])]); QGet [(1, Some [1])] ].
Definition w_class3 := [ QSet 1 true true (Some [kv1 1 (SVSc TI64 1); kv1 2 (SVSc TI64 1)]); QSlDel 1 [(1, [1])]; QIsKeyExist 1 1 ].
Definition w_class4 := [ QSet 1 true true (Some [kv1 2 (SVSc TI64 1)]); QInc TI64 1 1 1 (Some (1, 2)) None None; QInc TI8 1 1 1 None None None ].
Definition w_class5 :=
  let it := {| kv_key := 1; kv_val := SVSc TI64 1; kv_meta := {| m_cat := 0; m_cby := 7; m_mat := 0; m_mby := 0; m_exp := 0 |} |} in
  [ QSet 1 true true (Some [it]); QSet 1 true true (Some [it]) ].

Definition first_class (qs : list request) : Z :=
  (fix go (t : sstate) (qs : list request) : Z :=
     match qs with
     | [] => 0
     | q :: rest => if disc t q =? 0 then go (fst (spec_step t q)) rest else disc t q
     end) sstate0 qs.

(* for [cfg_pinned] *)
Definition w_sticky := [ QSet 1 true true (Some [kv1 1 (SVSc TI64 1)]); QSet 1 true true (Some [kv1 1 (SVSc TI64 1)]) ].
Definition w_hang := [ QPush 1 [(1, [1])]; QSlDel 1 [(1, [1])] ].
Definition w_panic := [ QSet 1 true true (Some [kv1 1 (SVSc TI64 1)]); QGet [(1, Some [])] ].
