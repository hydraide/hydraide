(* Swamp/ClaimsProofs.v — invariants of Swamp/Claims.v for every schedule of any number of
   claimers and writers, in every configuration that re-checks existence before a re-save and
   evaluates the full filter at selection (the current tree is one), and the consequences for a
   selection step.  [old_nil], [old_stale], [old_reidx] are the three behaviours of the pinned
   commit; Props/C11.v refutes the property for each. *)
From HV Require Import Base.Prelude Swamp.Claims.
From Coq Require Import Sorted.

Lemma memN_In k l : memN k l = true <-> In k l.
Proof.
  unfold memN. rewrite existsb_exists. split.
  - intros [x [Hi E]]. apply N.eqb_eq in E. subst. assumption.
  - intro H. exists k. split; [assumption|apply N.eqb_refl].
Qed.

Lemma rem_filter k l : rem k l = filter (fun x => negb (N.eqb x k)) l.
Proof. induction l as [|y t IH]; simpl; [reflexivity|]. destruct (N.eqb y k); simpl; congruence. Qed.

Lemma rem_In x k l : In x (rem k l) <-> In x l /\ x <> k.
Proof. rewrite rem_filter, filter_In, negb_true_iff, N.eqb_neq. reflexivity. Qed.

Lemma rem_NoDup k l : NoDup l -> NoDup (rem k l).
Proof. rewrite rem_filter. apply NoDup_filter. Qed.

Lemma ins_In x k l : In x (ins k l) <-> In x l \/ x = k.
Proof.
  unfold ins. destruct (memN k l) eqn:E.
  - apply memN_In in E. split; [tauto|]. intros [H| ->]; assumption.
  - rewrite in_app_iff. simpl. intuition.
Qed.

Lemma ins_NoDup k l : NoDup l -> NoDup (ins k l).
Proof.
  unfold ins. destruct (memN k l) eqn:E; [auto|]. intro H.
  apply (NoDup_Add (Add_app k l [])). rewrite app_nil_r, <- memN_In, E. split; [assumption|discriminate].
Qed.

Lemma rem_all_In x ks l : In x (rem_all ks l) <-> In x l /\ ~ In x ks.
Proof.
  revert l; induction ks as [|k t IH]; intro l; simpl; [tauto|].
  rewrite IH, rem_In. intuition congruence.
Qed.

Lemma rem_all_NoDup ks l : NoDup l -> NoDup (rem_all ks l).
Proof. revert l; induction ks as [|k t IH]; intro l; simpl; auto using rem_NoDup. Qed.

Lemma firstn_In {A} (x : A) n l : In x (firstn n l) -> In x l.
Proof. intro H. rewrite <- (firstn_skipn n l). apply in_or_app. auto. Qed.

Lemma lookup_key k l r : lookup k l = Some r -> rk r = k.
Proof.
  induction l as [|h t IH]; simpl; [discriminate|].
  destruct (N.eqb_spec (rk h) k); [intros [= <-]|]; assumption.
Qed.

Lemma lookup_In l r : NoDup (map rk l) -> In r l -> lookup (rk r) l = Some r.
Proof.
  induction l as [|h t IH]; simpl; [tauto|]. intros Hn [->|Hi]; [rewrite N.eqb_refl; reflexivity|].
  inversion Hn as [|? ? Hh Ht]; subst.
  destruct (N.eqb_spec (rk h) (rk r)) as [E|_]; [|auto]. destruct Hh. rewrite E. apply in_map, Hi.
Qed.

Record Good (rs : list rec) (sl cl' : list N) : Prop := {
  g_nodup : NoDup sl;
  g_alive : forall k, In k sl -> alive_k k rs = true;
  g_claimed : forall k, In k cl' -> ~ In k sl
}.

Definition put (rs rs' : list rec) (k : N) (r' : rec) : Prop :=
  forall k', lookup k' rs' = if N.eqb k' k then Some r' else lookup k' rs.

Lemma put_replace {k r l} r' : lookup k l = Some r -> rk r' = k -> put l (replace k r' l) k r'.
Proof.
  intros E Hk k'. revert E. induction l as [|h t IH]; simpl; [discriminate|].
  destruct (N.eqb_spec (rk h) k) as [Eh|Eh]; simpl.
  - intros _. rewrite Hk, <- Eh, (N.eqb_sym k'). destruct (N.eqb (rk h) k'); reflexivity.
  - intro E. destruct (N.eqb_spec (rk h) k') as [<-|_]; [|exact (IH E)].
    destruct (N.eqb_spec (rk h) k); [contradiction|reflexivity].
Qed.

Lemma put_app {k l} r' : lookup k l = None -> rk r' = k -> put l (l ++ [r']) k r'.
Proof.
  intros E <- k'. revert E. induction l as [|h t IH]; simpl.
  - intros _. rewrite (N.eqb_sym k'). destruct (N.eqb (rk r') k'); reflexivity.
  - destruct (N.eqb_spec (rk h) (rk r')) as [|Eh]; [discriminate|]. intro E.
    destruct (N.eqb_spec (rk h) k') as [<-|_]; [|exact (IH E)].
    destruct (N.eqb_spec (rk h) (rk r')); [contradiction|reflexivity].
Qed.

Lemma good_rem {rs rs' sl cl0 k r'} cl1 :
  Good rs sl cl0 -> put rs rs' k r' -> (forall x, In x cl1 -> In x cl0) ->
  Good rs' (rem k sl) cl1.
Proof.
  intros [Hn Ha Hc] Hk Hs. split.
  - apply rem_NoDup; assumption.
  - intros x Hx. apply rem_In in Hx as [Hx Hne]. unfold alive_k. rewrite Hk, (proj2 (N.eqb_neq _ _) Hne). exact (Ha x Hx).
  - intros x Hx Hi. apply rem_In in Hi as [Hi _]. eapply Hc; eauto.
Qed.

Lemma good_ins {rs sl cl0} k : Good rs sl cl0 -> alive_k k rs = true -> Good rs (ins k sl) (rem k cl0).
Proof.
  intros [Hn Ha Hc] Hal. split.
  - apply ins_NoDup; assumption.
  - intros x Hx. apply ins_In in Hx as [Hx| ->]; auto.
  - intros x Hx Hi. apply rem_In in Hx as [Hx Hne]. apply ins_In in Hi as [Hi|Hi]; [|contradiction].
    eapply Hc; eauto.
Qed.

(* a save of an alive record of k with expiry e refreshes the index entry of k: dropped, and re-added
   unless e = 0 *)
Lemma good_resave {rs rs' sl cl0 k r'} (e : Z) :
  Good rs sl cl0 -> ralive r' = true -> put rs rs' k r' ->
  Good rs' (if Z.eqb e 0 then rem k sl else ins k (rem k sl)) (rem k cl0).
Proof.
  intros HG Hal Hk. destruct (Z.eqb e 0).
  - apply (good_rem _ HG Hk). intros x Hx. apply rem_In in Hx. tauto.
  - apply good_ins; [apply (good_rem _ HG Hk); auto|]. unfold alive_k. rewrite Hk, N.eqb_refl. exact Hal.
Qed.

(* ... or the index is left alone *)
Lemma good_alive {rs rs' sl cl0 k r'} : Good rs sl cl0 -> ralive r' = true -> put rs rs' k r' -> Good rs' sl cl0.
Proof.
  intros [Hn Ha Hc] Hal Hk. split; [assumption| |assumption].
  intros x Hx. unfold alive_k. rewrite Hk. destruct (N.eqb x k); [exact Hal|exact (Ha x Hx)].
Qed.

Lemma good_wstep {w s rs sl cl'} :
  Good (recs s) (slice s) (cl s) -> wstep w s = (rs, sl, cl') -> Good rs sl cl'.
Proof.
  intros HG. destruct w as [k|k st grp e|k st|k e]; simpl;
    (* on a key that is not stored only WPut does anything *)
    (destruct (lookup k (recs s)) as [r|] eqn:E; [|try (intros [= <- <- <-]; exact HG)]).
  - (* WDel, stored *) destruct (ralive r); intros [= <- <- <-]; [|exact HG].
    eapply (good_rem _ HG); [apply (put_replace _ E); reflexivity | auto].
  - (* WPut, stored *) intros [= <- <- <-]. eapply (good_resave _ HG), (put_replace _ E); reflexivity.
  - (* WPut, new key *) intros [= <- <- <-]. eapply (good_resave _ HG), (put_app _ E); reflexivity.
  - (* WPatch, stored *)
    destruct (ralive r); intros [= <- <- <-]; [|exact HG]. eapply (good_alive HG), (put_replace _ E); reflexivity.
  - (* WExp, stored *)
    destruct (ralive r); intros [= <- <- <-]; [|exact HG]. eapply (good_resave _ HG), (put_replace _ E); reflexivity.
Qed.

Lemma good_select rs sl cl0 keys : Good rs sl cl0 -> Good rs (rem_all keys sl) (cl0 ++ keys).
Proof.
  intros [Hn Ha Hc]. split.
  - apply rem_all_NoDup; assumption.
  - intros k Hk. apply rem_all_In in Hk as [Hk _]. auto.
  - intros k Hk Hi. apply rem_all_In in Hi as [Hi Hnk]. apply in_app_iff in Hk as [Hk|Hk]; [eapply Hc; eauto|tauto].
Qed.

Lemma still_there_alive {c k g l} :
  reindex_unchecked c = false -> still_there c k g l = true -> alive_k k l = true.
Proof.
  unfold still_there, alive_k. intros ->. destruct (lookup k l); [|discriminate].
  simpl. intro H. apply andb_true_iff in H. tauto.
Qed.

Lemma good_reindex {c} sel {rs} : reindex_unchecked c = false -> forall sl cl0 sl' cl1,
  Good rs sl cl0 -> reindex c sel rs sl cl0 = (sl', cl1) -> Good rs sl' cl1.
Proof.
  intro Hu. induction sel as [|[k g] t IH]; simpl; intros sl cl0 sl' cl1 HG H.
  - injection H as <- <-. assumption.
  - destruct (lookup k rs) as [r|] eqn:E; [|eapply IH; eauto].
    destruct (still_there c k g rs && negb (Z.eqb (rexp r) 0)) eqn:C; [|eapply IH; eauto].
    refine (IH _ _ _ _ (good_ins k HG _) H).
    apply andb_true_iff in C as [C _]. exact (still_there_alive Hu C).
Qed.

Lemma ins_sorted_In x y l : In x (ins_sorted y l) <-> x = y \/ In x l.
Proof.
  induction l as [|h t IH]; simpl; [split; intros [H|[]]; auto|].
  destruct (Z.ltb (rexp y) (rexp h)); simpl; [split; intros [H|H]; auto|]. rewrite IH. tauto.
Qed.

Lemma walk_In s r : In r (walk s) -> In (rk r) (slice s) /\ lookup (rk r) (recs s) = Some r.
Proof.
  unfold walk. rewrite (in_rev (slice s)). induction (rev (slice s)) as [|k t IH]; simpl; [tauto|].
  destruct (lookup k (recs s)) as [x|] eqn:E; [rewrite ins_sorted_In|]; intros H.
  - destruct H as [->|H]; [rewrite (lookup_key _ _ _ E); auto|]. destruct (IH H). auto.
  - destruct (IH H). auto.
Qed.

Definition le_exp (a b : rec) : Prop := (rexp a <= rexp b)%Z.

Lemma ins_sorted_sorted x l : StronglySorted le_exp l -> StronglySorted le_exp (ins_sorted x l).
Proof.
  induction l as [|h t IH]; simpl; intro H; [constructor; constructor|].
  inversion H as [|? ? Ht Hh]; subst.
  destruct (Z.ltb (rexp x) (rexp h)) eqn:E.
  - apply Z.ltb_lt in E. constructor; [assumption|].
    constructor; [unfold le_exp; lia|]. eapply Forall_impl; [|exact Hh]. unfold le_exp. intros; lia.
  - apply Z.ltb_ge in E. constructor; [auto|].
    apply Forall_forall. intros y Hy. apply ins_sorted_In in Hy as [->|Hy]; [assumption|].
    rewrite Forall_forall in Hh. auto.
Qed.

Lemma walk_sorted s : StronglySorted le_exp (walk s).
Proof.
  unfold walk. induction (rev (slice s)) as [|k t IH]; simpl; [constructor|].
  destruct (lookup k (recs s)); [apply ins_sorted_sorted|]; assumption.
Qed.

Lemma sorted_firstn_filter {A} (R : A -> A -> Prop) f l :
  StronglySorted R l -> forall n, StronglySorted R (firstn n (filter f l)).
Proof.
  induction 1 as [|h t Ht IH Hh]; intro n; simpl; [rewrite firstn_nil; constructor|].
  destruct (f h); [|apply IH]. destruct n; simpl; constructor; [apply IH|].
  rewrite Forall_forall in *. intros y Hy. apply firstn_In, filter_In in Hy. apply Hh, Hy.
Qed.

Lemma pred_crit {c od p ks x} : residual_only c = false -> pred c od p ks x = true -> crit od p x = true.
Proof.
  unfold pred, crit. intros -> H. apply andb_true_iff in H as [H H3]. apply andb_true_iff in H as [-> _]. exact H3.
Qed.

Lemma select_ok {c s hm od p ks r} :
  residual_only c = false -> Good (recs s) (slice s) (cl s) -> In r (select c hm od p ks s) ->
  crit od p r = true /\ ralive r = true /\ In (rk r) (slice s) /\ ~ In (rk r) (cl s).
Proof.
  intros Hr [_ Ha Hc] H. apply firstn_In, filter_In in H as [H Hp]. apply walk_In in H as [Hs Hl].
  repeat split; [apply (pred_crit Hr Hp)| |exact Hs|intro Hi; exact (Hc _ Hi Hs)].
  specialize (Ha _ Hs). unfold alive_k in Ha. rewrite Hl in Ha. exact Ha.
Qed.

Lemma select_sorted c s hm od p ks : StronglySorted le_exp (select c hm od p ks s).
Proof. apply sorted_firstn_filter, walk_sorted. Qed.

Lemma monitors_silent {c s} hm od p ks :
  residual_only c = false -> Good (recs s) (slice s) (cl s) ->
  monitors od p (select c hm od p ks s) s = [].
Proof.
  intros Hr HG. pose proof (fun r => @select_ok c s hm od p ks r Hr HG) as H. unfold monitors.
  destruct (existsb _ _) eqn:E.
  { apply existsb_exists in E as [r [Hi Hm]]. apply memN_In in Hm. destruct (H r Hi) as [_ [_ [_ Hn]]]. contradiction. }
  rewrite !(proj2 (forallb_forall _ _)); [reflexivity| |]; intros r Hi; apply (H r Hi).
Qed.

Definition Inv (s : state) : Prop := Good (recs s) (slice s) (cl s) /\ bad s = [].

Lemma inv_mk s t rs sl cl' bad' p add :
  Inv s -> Good rs sl cl' -> bad' = [] -> Inv (mk s t rs sl cl' bad' p add).
Proof. intros HI HG Hb. unfold mk. destruct (nth_error (thr s) t); [split|]; assumption. Qed.

Lemma inv_wstep {s w rs sl cl'} t p add :
  Inv s -> wstep w s = (rs, sl, cl') -> Inv (mk s t rs sl cl' (bad s) p add).
Proof. intros HI W. apply inv_mk; [exact HI|exact (good_wstep (proj1 HI) W)|exact (proj2 HI)]. Qed.

(* selection and removal from the index are one step *)
Lemma inv_select {c s} t hm od p ks pc add :
  residual_only c = false -> Inv s ->
  let sel := select c hm od p ks s in
  Inv (mk s t (recs s) (rem_all (map rk sel) (slice s)) (cl s ++ map rk sel)
          (bad s ++ monitors od p sel s) pc add).
Proof.
  intros Hr [HG Hb] sel. apply inv_mk; [split; assumption|apply good_select, HG|].
  rewrite Hb. apply (monitors_silent _ _ _ _ Hr HG).
Qed.

(* The structure of the index needs only the existence re-check before a re-save / re-index
   ([reindex_unchecked c = false]), the silence of the monitors only the full filter at selection
   ([residual_only c = false]); an empty candidate list that skips the indexed condition
   ([nil_skips]) is harmless once the full filter is evaluated. *)
Lemma step_inv {c t s s'} :
  residual_only c = false -> reindex_unchecked c = false -> Inv s -> step c t s = Some s' -> Inv s'.
Proof.
  intros Hr Hu HI. pose proof HI as [HG Hb]. unfold step.
  destruct (nth_error (thr s) t) as [lo|]; [|discriminate].
  destruct (lpc lo) as [[hm od p|hm p nst nexp|w]|hm od p ks|[|k r]|hm p ks nst nexp|sel [|[k g] r] nst nexp|sel|].
  - (* Idle (CShift ..) *) intros [= <-]. now apply inv_mk.
  - (* Idle (CPatch ..) *) intros [= <-]. now apply inv_mk.
  - (* Idle (W w) *)
    destruct (wstep w s) as [[rs sl] cl'] eqn:W. intros [= <-]. apply (inv_wstep _ _ _ HI W).
  - (* ShBuilt *) intros [= <-]. apply (inv_select _ _ _ _ _ _ _ Hr HI).
  - (* ShSel [] *) intros [= <-]. now apply inv_mk.
  - (* ShSel (k :: r): deleteHandler on one shifted key is the writer's delete *)
    destruct (wstep (WDel k) s) as [[rs sl] cl'] eqn:W. intros [= <-]. apply (inv_wstep _ _ _ HI W).
  - (* PeBuilt *) intros [= <-]. apply (inv_select _ _ _ _ _ _ _ Hr HI).
  - (* PeSel _ [] *) intros [= <-]. now apply inv_mk.
  - (* PeSel _ ((k, g) :: r) *)
    destruct (lookup k (recs s)) as [x|] eqn:E; [|intros [= <-]; now apply inv_mk].
    destruct (still_there c k g (recs s)) eqn:ST; [|intros [= <-]; now apply inv_mk].
    apply (still_there_alive Hu) in ST as Al. unfold alive_k in Al. rewrite E in Al.
    (* the record is alive: it is patched in place, and its index entry is refreshed only if the
       patch set the expiry *)
    rewrite Al, Hb. destruct nexp as [e|]; intros [= <-]; (apply inv_mk; [assumption| |reflexivity]).
    + eapply (good_resave _ HG), (put_replace _ E); reflexivity.
    + eapply (good_alive HG), (put_replace _ E); reflexivity.
  - (* PeReidx *)
    destruct (reindex c sel (recs s) (slice s) (cl s)) as [sl cl'] eqn:R. intros [= <-].
    apply inv_mk; [assumption|apply (good_reindex _ Hu _ _ _ _ HG R)|assumption].
  - (* Done *) discriminate.
Qed.

Lemma run_inv c sched : residual_only c = false -> reindex_unchecked c = false ->
  forall s, Inv s -> Inv (run c sched s).
Proof.
  intros Hr Hu. induction sched as [|t r IH]; intros s HI; simpl; [assumption|].
  destruct (step c t s) as [s'|] eqn:E; [apply IH, (step_inv Hr Hu HI E) | apply IH, HI].
Qed.

Lemma NoDup_map_filter {A B} (f : A -> B) (g : A -> bool) l : NoDup (map f l) -> NoDup (map f (filter g l)).
Proof.
  induction l as [|h t IH]; simpl; intro H; [constructor|]. inversion H as [|? ? Hh Ht]; subst.
  destruct (g h); simpl; [|auto]. constructor; [|auto].
  intro Hi. apply Hh. apply in_map_iff in Hi as [r [Hr Hi]]. apply filter_In in Hi as [Hi _].
  rewrite <- Hr. apply in_map. assumption.
Qed.

Lemma init_inv rs ps : NoDup (map rk rs) -> Inv (init rs ps).
Proof.
  intro Hn. split; [|reflexivity]. simpl. split.
  - apply NoDup_map_filter; assumption.
  - intros k Hk. apply in_map_iff in Hk as [r [<- Hi]]. apply filter_In in Hi as [Hi Hf].
    unfold alive_k. rewrite (lookup_In _ _ Hn Hi). apply andb_true_iff in Hf. tauto.
  - intros k [].
Qed.

(* [cfg_now] is one such configuration; what a selection step returns in a reachable state is
   [select_ok] and [select_sorted]. *)
Theorem reach_inv c rs ps sched :
  residual_only c = false -> reindex_unchecked c = false ->
  NoDup (map rk rs) -> Inv (run c sched (init rs ps)).
Proof. intros Hr Hu H. apply (run_inv c sched Hr Hu), init_inv, H. Qed.

Definition r_ (k st grp : N) (e : Z) : rec := {| rk := k; rst := st; rgrp := grp; rexp := e; rg := 0; ralive := true |}.
Definition ex_recs : list rec := [r_ 1 0 1 (-5); r_ 2 1 2 (-4); r_ 3 1 0 (-3); r_ 4 0 3 7; r_ 5 1 5 (-1)].
Definition ex_progs : list prog :=
  [CShift 1 true (PIndexed (st_eq 1) (grp_ge 1)); CPatch 2 None 2 (Some 9%Z); CShift 5 true (PBypass ftrue);
   W (WPatch 2 0); W (WDel 1); W (WPut 1 1 4 (-9))].

(* an interleaving in which the stale candidate (key 2, patched out of status 1 during the
   yield) is NOT claimed, the deleted key 1 is not patched (KEY_NOT_FOUND) and is claimed again
   only after its re-creation *)
Example claims_nonvacuous :
  let s := run cfg_now [0;3;1;1;4;0;1;1;1;1;5;2;2;0;0;2;2;2] (init ex_recs ex_progs) in
  bad s = [] /\ map lres (thr s) =
    [[(5,0)]; [(1,2); (2,0)]; [(1,0); (3,0)]; []; []; []]%N.
Proof. vm_compute. split; reflexivity. Qed.

Definition old_nil : cfg := {| nil_skips := true; residual_only := true; reindex_unchecked := false |}.
Definition old_stale : cfg := {| nil_skips := false; residual_only := true; reindex_unchecked := false |}.
Definition old_reidx : cfg := {| nil_skips := false; residual_only := false; reindex_unchecked := true |}.
