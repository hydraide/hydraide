(* Swamp/IndexProofs.v — index reads of Swamp/Index.v return the sorted, ranged page.
   On a slice sorted by the active attribute, findTimeRangeBounds and GetManyFromOrderPosition
   cut out the paged window. Every operation keeps every initialised slice a sorted list of the
   carriers of its attribute (Inv), so every read is a spec page; the boolean oracle of the
   correspondence check decides that notion (valid_page_sound, valid_page_complete). The two
   histories at the end are those Props/C07.v uses against the legacy rules. *)
From HV Require Import Base.Prelude Swamp.Index.
From Coq Require Import Sorted Permutation Lia ZifyNat ZifyBool ZifyN.
Local Open Scope Z_scope.

Lemma skey_leb_cons x a y b :
  skey_leb (x :: a) (y :: b) = true <-> x < y \/ x = y /\ skey_leb a b = true.
Proof.
  simpl. destruct (Z.ltb_spec x y); [intuition|].
  destruct (Z.eqb_spec x y); [intuition | intuition (lia || discriminate)].
Qed.

Lemma skey_leb_refl a : skey_leb a a = true.
Proof. induction a as [|x a IH]; [reflexivity|]. apply skey_leb_cons. auto. Qed.

Lemma skey_leb_total a : forall b, skey_leb a b = true \/ skey_leb b a = true.
Proof.
  induction a as [|x a IH]; intros [|y b]; auto. rewrite !skey_leb_cons.
  destruct (Z.lt_total x y) as [L|[E|L]]; auto. destruct (IH b); auto.
Qed.

Lemma skey_leb_trans a : forall b c, skey_leb a b = true -> skey_leb b c = true -> skey_leb a c = true.
Proof.
  induction a as [|x a IH]; intros [|y b] [|z c]; auto; try discriminate.
  rewrite !skey_leb_cons. intros [L1|[-> H1]] [L2|[-> H2]]; [left; lia ..|]. eauto.
Qed.

Lemma skey_leb_antisym a : forall b, skey_leb a b = true -> skey_leb b a = true -> a = b.
Proof.
  induction a as [|x a IH]; intros [|y b]; auto; try discriminate.
  rewrite !skey_leb_cons. intros [L1|[-> H1]] [L2|[E H2]]; try lia. f_equal. auto.
Qed.

Lemma skey_eqb_eq a b : skey_eqb a b = true <-> a = b.
Proof. apply list_eqb_eq. exact Z.eqb_eq. Qed.
Lemma skey_eqb_refl a : skey_eqb a a = true.
Proof. apply skey_eqb_eq. reflexivity. Qed.
Lemma skey_eqb_neq a b : skey_eqb a b = false <-> a <> b.
Proof. rewrite <- skey_eqb_eq. symmetry. apply not_true_iff_false. Qed.
Lemma skey_eqb_spec a b : reflect (a = b) (skey_eqb a b).
Proof. apply iff_reflect. symmetry. apply skey_eqb_eq. Qed.
Lemma fam_eqb_spec a b : reflect (a = b) (fam_eqb a b).
Proof. destruct a, b; constructor; congruence. Qed.

Lemma ord_leb_refl asc a : ord_leb asc a a = true.
Proof. destruct asc; apply skey_leb_refl. Qed.
Lemma ord_leb_total asc a b : ord_leb asc a b = true \/ ord_leb asc b a = true.
Proof. destruct asc; apply skey_leb_total. Qed.
Lemma ord_leb_trans asc a b c : ord_leb asc a b = true -> ord_leb asc b c = true -> ord_leb asc a c = true.
Proof. destruct asc; simpl; eauto using skey_leb_trans. Qed.
Lemma ord_leb_antisym asc a b : ord_leb asc a b = true -> ord_leb asc b a = true -> a = b.
Proof. destruct asc; simpl; auto using skey_leb_antisym. Qed.

Lemma ltb_leb x f : skey_ltb x f = true -> skey_leb x f = true.
Proof. unfold skey_ltb. destruct (skey_leb_total x f) as [A|A]; [auto | rewrite A; discriminate]. Qed.
Lemma skey_leb_ltb_trans y z f : skey_leb y z = true -> skey_ltb z f = true -> skey_ltb y f = true.
Proof.
  unfold skey_ltb. intros H1 H2. destruct (skey_leb f y) eqn:E; auto.
  rewrite (skey_leb_trans _ _ _ E H1) in H2. discriminate.
Qed.

Section Isort.
  Context {X : Type} (le : X -> X -> bool).
  Hypothesis le_total : forall a b, le a b = true \/ le b a = true.
  Let R := fun a b => le a b = true.

  Lemma insert_by_perm x l : Permutation (insert_by le x l) (x :: l).
  Proof.
    induction l as [|y t IH]; simpl; auto. destruct (le x y); auto.
    eapply perm_trans; [apply perm_skip, IH | apply perm_swap].
  Qed.
  Lemma isort_perm l : Permutation (isort le l) l.
  Proof.
    induction l as [|x t IH]; simpl; auto.
    eapply perm_trans; [apply insert_by_perm | apply perm_skip, IH].
  Qed.
  Lemma insert_by_hdrel a x l : HdRel R a l -> R a x -> HdRel R a (insert_by le x l).
  Proof. intros H Hx. destruct H as [|y t]; simpl; [|destruct (le x y)]; constructor; auto. Qed.
  Lemma insert_by_sorted x l : Sorted R l -> Sorted R (insert_by le x l).
  Proof.
    induction 1 as [|y t Hs IH Hh]; simpl; [repeat constructor|].
    destruct (le x y) eqn:E.
    - repeat constructor; auto.
    - constructor; auto. apply insert_by_hdrel; auto. destruct (le_total x y); [congruence | assumption].
  Qed.
  Lemma isort_sorted l : Sorted R (isort le l).
  Proof. induction l as [|x t IH]; simpl; [constructor | apply insert_by_sorted; exact IH]. Qed.
End Isort.

Section ListFacts.
  Context {X : Type}.
  Implicit Types (R : X -> X -> Prop) (l : list X).

  Lemma filter_and (f g : X -> bool) l : filter (fun x => f x && g x) l = filter g (filter f l).
  Proof. induction l as [|x t IH]; simpl; auto. destruct (f x); simpl; [destruct (g x)|]; rewrite IH; auto. Qed.
  Lemma filter_all (f : X -> bool) l : (forall x, In x l -> f x = true) -> filter f l = l.
  Proof. induction l as [|x t IH]; simpl; intros H; auto. rewrite (H x) by auto. f_equal. apply IH. auto. Qed.
  Lemma filter_none (f : X -> bool) l : (forall x, In x l -> f x = false) -> filter f l = [].
  Proof. induction l as [|x t IH]; simpl; intros H; auto. rewrite (H x) by auto. apply IH. auto. Qed.
  Lemma filter_len_le (f : X -> bool) l : (length (filter f l) <= length l)%nat.
  Proof. induction l as [|x t IH]; simpl; [|destruct (f x); simpl]; lia. Qed.
  Lemma filter_map_swap {Y} (g : X -> Y) (p : Y -> bool) l :
    filter p (map g l) = map g (filter (fun x => p (g x)) l).
  Proof. induction l as [|x t IH]; simpl; auto. destruct (p (g x)); simpl; rewrite IH; auto. Qed.
  Lemma forallb_filter (p : X -> bool) l : forallb p (filter p l) = true.
  Proof. apply forallb_forall. intros x Hx. apply filter_In in Hx. tauto. Qed.
  Lemma filter_perm (p : X -> bool) l l' : Permutation l l' -> Permutation (filter p l) (filter p l').
  Proof.
    induction 1 as [|x l l' P IH|x y l|l l' l'' P1 IH1 P2 IH2]; simpl; auto.
    - destruct (p x); auto.
    - destruct (p x), (p y); auto using perm_swap.
    - eapply perm_trans; eauto.
  Qed.

  Lemma nodup_app_l (a b : list X) : NoDup (a ++ b) -> NoDup a.
  Proof.
    induction a as [|x t IH]; simpl; intros H; [constructor|]. inversion H; subst. constructor; auto.
    intros Hx. apply H2. apply in_or_app. auto.
  Qed.
  Lemma nodup_incl_split (P W : list X) : NoDup P -> incl P W -> exists Rm, Permutation W (P ++ Rm).
  Proof.
    intros N. revert W. induction N as [|x t Hx N IH]; intros W I; [exists W; reflexivity|].
    destruct (in_split x W (I x (in_eq x t))) as (W1 & W2 & ->).
    destruct (IH (W1 ++ W2)) as [Rm PR].
    { intros y Hy. pose proof (I y (in_cons x y t Hy)) as H. apply in_app_or in H. apply in_or_app.
      destruct H as [H|[->|H]]; auto. contradiction. }
    exists Rm. eapply perm_trans; [apply Permutation_sym, Permutation_middle|]. simpl. apply perm_skip, PR.
  Qed.

  Lemma Sorted_ext_in R R' l :
    (forall x y, In x l -> In y l -> R x y -> R' x y) -> Sorted R l -> Sorted R' l.
  Proof.
    intros E S. induction S as [|x t S IH H]; constructor.
    - apply IH. intros a b Ha Hb. apply E; right; auto.
    - destruct H; constructor. apply E; [left; auto | right; left; auto | auto].
  Qed.
  Lemma Sorted_map {Y} (g : X -> Y) (Q : Y -> Y -> Prop) l :
    Sorted (fun a b => Q (g a) (g b)) l <-> Sorted Q (map g l).
  Proof.
    induction l as [|x t IH]; simpl; [split; constructor|].
    assert (Hd : HdRel (fun a b => Q (g a) (g b)) x t <-> HdRel Q (g x) (map g t))
      by (destruct t; split; intros H; inversion H; constructor; assumption).
    split; intros H; apply Sorted_inv in H; constructor; tauto.
  Qed.
  Lemma filter_ssorted R p l : StronglySorted R l -> StronglySorted R (filter p l).
  Proof.
    induction 1 as [|x t S IH F]; simpl; [constructor|]. destruct (p x); auto. constructor; auto.
    rewrite Forall_forall in *. intros y Hy. apply filter_In in Hy. apply F. tauto.
  Qed.
  Lemma filter_sorted R p l : (forall x y z, R x y -> R y z -> R x z) -> Sorted R l -> Sorted R (filter p l).
  Proof. intros T S. apply StronglySorted_Sorted, filter_ssorted, Sorted_StronglySorted; assumption. Qed.

  Lemma sorted_perm_unique R :
    (forall x y z, R x y -> R y z -> R x z) -> (forall x y, R x y -> R y x -> x = y) ->
    forall l1 l2, Sorted R l1 -> Sorted R l2 -> Permutation l1 l2 -> l1 = l2.
  Proof.
    intros T A l1 l2 S1 S2. apply Sorted_StronglySorted in S1, S2; try exact T.
    revert l2 S2. induction S1 as [|x t S1 IH F1]; intros l2 S2 P.
    - apply Permutation_nil in P. auto.
    - destruct S2 as [|y u S2 F2]; [apply Permutation_sym, Permutation_nil in P; discriminate|].
      assert (x = y).
      { rewrite Forall_forall in F1, F2.
        destruct (Permutation_in _ P (in_eq x t)) as [->|Ix]; auto.
        destruct (Permutation_in _ (Permutation_sym P) (in_eq y u)) as [->|Iy]; auto. }
      subst y. f_equal. apply IH; auto. eapply Permutation_cons_inv; eauto.
  Qed.

  (* a predicate that is closed towards the front of a sorted list holds exactly on a prefix *)
  Definition front_closed R (p : X -> bool) : Prop := forall y z, R y z -> p z = true -> p y = true.
  Definition on_prefix (p : X -> bool) l : Prop := l = filter p l ++ filter (fun x => negb (p x)) l.

  Lemma closed_tail_none R p y t :
    front_closed R p -> Forall (R y) t -> p y = false -> filter p t = [].
  Proof.
    intros C F E. apply filter_none. intros z Hz. rewrite Forall_forall in F.
    destruct (p z) eqn:Ez; auto. rewrite (C y z (F z Hz) Ez) in E. discriminate.
  Qed.

  Lemma sorted_split R p l : front_closed R p -> StronglySorted R l -> on_prefix p l.
  Proof.
    intros C S. unfold on_prefix. induction S as [|y t S IH F]; simpl; auto.
    destruct (p y) eqn:E; simpl; [f_equal; exact IH|].
    rewrite (closed_tail_none R p y t C F E) in *. simpl in *. congruence.
  Qed.

  (* empty if the second prefix is the shorter one: the subtraction is on nat *)
  Lemma sorted_segment R (p1 p2 : X -> bool) l :
    front_closed R p1 -> front_closed R p2 -> StronglySorted R l ->
    filter (fun x => negb (p1 x) && p2 x) l =
      firstn (length (filter p2 l) - length (filter p1 l)) (skipn (length (filter p1 l)) l).
  Proof.
    intros C1 C2 S. induction S as [|y t S IH F]; [reflexivity|]. simpl.
    destruct (p2 y) eqn:E2.
    2:{ (* the second prefix is empty *)
        rewrite (closed_tail_none R p2 y t C2 F E2) in *. destruct (p1 y); exact IH. }
    destruct (p1 y) eqn:E1; simpl; [exact IH|].
    (* the first prefix is empty: [y] opens the interval *)
    rewrite (closed_tail_none R p1 y t C1 F E1) in *. simpl in *.
    rewrite Nat.sub_0_r in *. f_equal. exact IH.
  Qed.
End ListFacts.

Lemma page_of_map {X Y} (g : X -> Y) from lim l : page_of from lim (map g l) = map g (page_of from lim l).
Proof. unfold page_of. destruct lim; rewrite skipn_map, ?firstn_map; reflexivity. Qed.
Lemma page_of_count {X} from n (l : list X) : (length l <= n)%nat -> page_of from n l = page_of from 0 l.
Proof. intros H. unfold page_of. destruct n; auto. apply firstn_all2. rewrite skipn_length. lia. Qed.
Lemma page_of_cut {X} from lim k s (l : list X) :
  page_of from lim (firstn k (skipn s l)) =
    firstn (match lim with O => k - from | _ => Nat.min lim (k - from) end) (skipn (from + s) l).
Proof.
  unfold page_of. rewrite <- skipn_skipn.
  destruct lim; rewrite skipn_firstn_comm, ?firstn_firstn; reflexivity.
Qed.
Lemma page_of_split {X} from lim (l : list X) : exists B, l = firstn from l ++ page_of from lim l ++ B.
Proof.
  unfold page_of. destruct lim.
  - exists []. rewrite app_nil_r. symmetry. apply firstn_skipn.
  - exists (skipn (S lim) (skipn from l)). rewrite !firstn_skipn. reflexivity.
Qed.
Lemma page_of_incl {X} from lim (l : list X) : incl (page_of from lim l) l.
Proof.
  destruct (page_of_split from lim l) as [B E]. intros x Hx. rewrite E.
  apply in_or_app. right. apply in_or_app. left. exact Hx.
Qed.
Lemma nodup_page_of {X} from lim (l : list X) : NoDup l -> NoDup (page_of from lim l).
Proof.
  destruct (page_of_split from lim l) as [B E]. intros N. rewrite E in N.
  eapply nodup_app_l, Permutation_NoDup; [apply Permutation_app_swap_app | exact N].
Qed.

Lemma bs_correct (go : skey -> bool) (a1 a2 : list skey) :
  forallb go a1 = true -> forallb (fun x => negb (go x)) a2 = true ->
  forall fuel l r, (l <= length a1 <= r)%nat /\ (r <= length (a1 ++ a2))%nat /\ (r - l < fuel)%nat ->
    bs fuel go (a1 ++ a2) l r = Some (length a1).
Proof.
  intros G1 G2. rewrite forallb_forall in G1, G2.
  induction fuel as [|fuel IH]; intros l r H; [lia|].
  cbn [bs]. destruct (Nat.ltb_spec l r) as [Lt|Ge]; [|f_equal; lia].
  cbv zeta. set (m := (l + (r - l) / 2)%nat).
  assert (Hm : (l <= m < r)%nat) by (pose proof (Nat.div_lt (r - l) 2); lia).
  destruct (nth_error (a1 ++ a2) m) as [x|] eqn:E; [|apply nth_error_None in E; lia].
  destruct (Nat.lt_ge_cases m (length a1)) as [Lm|Gm].
  - rewrite nth_error_app1 in E by exact Lm. apply nth_error_In in E. rewrite (G1 x E).
    apply IH. lia.
  - rewrite nth_error_app2 in E by exact Gm. apply nth_error_In in E.
    specialize (G2 x E). destruct (go x); [discriminate|]. apply IH. lia.
Qed.

Lemma search_ok (p : skey -> bool) a :
  on_prefix p a -> bs (S (length a)) p a 0 (length a) = Some (length (filter p a)).
Proof.
  intros H. pose proof (filter_len_le p a).
  pose proof (bs_correct p (filter p a) (filter (fun x => negb (p x)) a)) as B.
  unfold on_prefix in H. rewrite <- H in B. apply B; [apply forallb_filter .. | lia].
Qed.

Definition win (ft tu : option skey) (x : skey) : bool :=
  (match ft with Some f => skey_leb f x | None => true end) &&
  (match tu with Some t => skey_ltb x t | None => true end).

Lemma win_in_win f ft tu a :
  win (if is_time f then option_map (fun z => [z]) ft else None)
      (if is_time f then option_map (fun z => [z]) tu else None) a = in_win f ft tu a.
Proof. unfold win, in_win. destruct (is_time f), ft, tu; reflexivity. Qed.

Definition ordR (asc : bool) : skey -> skey -> Prop := fun x y => ord_leb asc x y = true.

(* [edge asc (Some b) _] holds of the entries in front of the bound [b] in a slice sorted in
   direction [asc]; a missing bound has nothing ([dflt = false]) or everything ([dflt = true]) in
   front of it. The start search of findTimeRangeBounds counts the entries in front of the near bound
   ([lo_pred]), the end search those in front of the far bound ([hi_pred]). *)
Definition edge (asc : bool) (o : option skey) (dflt : bool) : skey -> bool :=
  match o with
  | Some b => if asc then fun x => skey_ltb x b else fun x => negb (skey_ltb x b)
  | None => fun _ => dflt
  end.
Definition lo_pred (asc : bool) (ft tu : option skey) := edge asc (if asc then ft else tu) false.
Definition hi_pred (asc : bool) (ft tu : option skey) := edge asc (if asc then tu else ft) true.

Lemma win_preds asc ft tu x : win ft tu x = negb (lo_pred asc ft tu x) && hi_pred asc ft tu x.
Proof.
  unfold win, lo_pred, hi_pred, edge, skey_ltb. destruct asc, ft, tu; simpl;
    rewrite ?negb_involutive, ?andb_true_r; auto using andb_comm.
Qed.

Lemma edge_closed asc o dflt : front_closed (ordR asc) (edge asc o dflt).
Proof.
  destruct o as [b|]; [|intros y z _ H; exact H].
  unfold front_closed, ordR, edge. destruct asc; simpl; intros y z.
  - apply skey_leb_ltb_trans.
  - unfold skey_ltb. rewrite !negb_involutive. intros. eapply skey_leb_trans; eauto.
Qed.

Lemma edge_search asc o dflt a :
  StronglySorted (ordR asc) a ->
  match o with
  | Some b => bs (S (length a)) (edge asc (Some b) dflt) a 0 (length a)
  | None => Some (if dflt then length a else 0%nat)
  end = Some (length (filter (edge asc o dflt) a)).
Proof.
  intros Srt. destruct o as [b|].
  - apply search_ok, (sorted_split (ordR asc)); [apply edge_closed | exact Srt].
  - cbn [edge]. destruct dflt; [rewrite filter_all | rewrite filter_none]; reflexivity.
Qed.

(* The tail of Index.find_bounds after its two searches returned [s0] and [e1], copied from there so
   that its arithmetic is done once, on variables; find_bounds_spec holds because the two texts
   are convertible. *)
Definition clamp_bounds (n s0 e1 : nat) : option (Z * Z) :=
  let startIdx := Z.of_nat s0 in
  let endIdx := Z.of_nat e1 - 1 in
  let startIdx := if startIdx <? 0 then 0 else startIdx in
  let endIdx := if endIdx >=? Z.of_nat n then Z.of_nat n - 1 else endIdx in
  if (startIdx >? endIdx) || (startIdx >=? Z.of_nat n) || (endIdx <? 0) then Some (0, -1)
  else Some (startIdx, endIdx).

Lemma clamp_bounds_ok n s0 e1 : (e1 <= n)%nat ->
  clamp_bounds n s0 e1 = Some (if (s0 <? e1)%nat then (Z.of_nat s0, Z.of_nat e1 - 1) else (0, -1)).
Proof.
  intros He. unfold clamp_bounds.
  replace (Z.of_nat s0 <? 0) with false by lia.
  replace (Z.of_nat e1 - 1 >=? Z.of_nat n) with false by lia.
  destruct (Nat.ltb_spec s0 e1); destruct (_ || _) eqn:E; (reflexivity || lia).
Qed.

Lemma find_bounds_spec asc a ft tu :
  Sorted (ordR asc) a ->
  find_bounds asc a ft tu =
    clamp_bounds (length a) (length (filter (lo_pred asc ft tu) a)) (length (filter (hi_pred asc ft tu) a)).
Proof.
  intros Srt. apply Sorted_StronglySorted in Srt; [|exact (ord_leb_trans asc)].
  unfold find_bounds. destruct (Nat.eqb_spec (length a) 0) as [Z0|_].
  { apply length_zero_iff_nil in Z0. subst a. reflexivity. }
  destruct asc.
  - pose proof (edge_search true ft false a Srt) as St. pose proof (edge_search true tu true a Srt) as En.
    cbn [edge] in St, En. rewrite St, En. reflexivity.
  - pose proof (edge_search false tu false a Srt) as St. pose proof (edge_search false ft true a Srt) as En.
    cbn [edge] in St, En. rewrite St, En. reflexivity.
Qed.

Lemma window_bounds {X} asc (at_ : X -> skey) (l : list X) ft tu :
  Sorted (fun x y => ord_leb asc (at_ x) (at_ y) = true) l ->
  exists s0 k : nat,
    find_bounds asc (map at_ l) ft tu = Some (Z.of_nat s0, Z.of_nat (s0 + k) - 1) /\
    (s0 + k <= length l)%nat /\
    filter (fun x => win ft tu (at_ x)) l = firstn k (skipn s0 l).
Proof.
  intros Srt.
  set (lo := fun x => lo_pred asc ft tu (at_ x)). set (hi := fun x => hi_pred asc ft tu (at_ x)).
  set (s0 := length (filter lo l)). set (e1 := length (filter hi l)).
  assert (Le : (e1 <= length l)%nat) by apply filter_len_le.
  assert (F : find_bounds asc (map at_ l) ft tu =
              Some (if (s0 <? e1)%nat then (Z.of_nat s0, Z.of_nat e1 - 1) else (0, -1))).
  { rewrite find_bounds_spec by (apply (proj1 (Sorted_map at_ (ordR asc) l)); exact Srt).
    rewrite !filter_map_swap, !map_length. apply clamp_bounds_ok, filter_len_le. }
  assert (W : filter (fun x => win ft tu (at_ x)) l = firstn (e1 - s0) (skipn s0 l)).
  { rewrite (filter_ext _ (fun x => negb (lo x) && hi x)) by (intros; apply win_preds).
    apply Sorted_StronglySorted in Srt; [|intros x y z; apply ord_leb_trans].
    eapply sorted_segment; [| |exact Srt]; intros y z; apply edge_closed. }
  rewrite W. destruct (Nat.ltb_spec s0 e1) as [Lt|Ge].
  - exists s0, (e1 - s0)%nat. replace (s0 + (e1 - s0))%nat with e1 by lia. auto.
  - exists 0%nat, 0%nat. replace (e1 - s0)%nat with 0%nat by lia. split; [exact F | split; [lia | reflexivity]].
Qed.

(* findTimeRangeBounds: the entries at [s..e] are, in order, those with from <= ts < to, in both
   directions. [Some]: no panic, no fuel exhaustion. *)
Theorem bounds_correct asc a ft tu :
  Sorted (ordR asc) a ->
  exists s e, find_bounds asc a ft tu = Some (s, e) /\
    0 <= s /\ -1 <= e < Z.of_nat (length a) /\ s <= e + 1 /\
    filter (win ft tu) a = firstn (Z.to_nat (e + 1 - s)) (skipn (Z.to_nat s) a).
Proof.
  intros Srt. destruct (window_bounds asc (fun x => x) a ft tu Srt) as (s0 & k & F & L & W).
  rewrite map_id in F. exists (Z.of_nat s0), (Z.of_nat (s0 + k) - 1).
  rewrite Nat2Z.id. replace (Z.to_nat (Z.of_nat (s0 + k) - 1 + 1 - Z.of_nat s0)) with k by lia.
  repeat split; (exact F || exact W || lia).
Qed.

Example bounds_example_desc :
  Sorted (ordR false) [[9]; [7]; [7]; [4]; [2]] /\
  find_bounds false [[9]; [7]; [7]; [4]; [2]] (Some [4]) (Some [9]) = Some (1, 3) /\
  filter (win (Some [4]) (Some [9])) [[9]; [7]; [7]; [4]; [2]] = [[7]; [7]; [4]].
Proof. split; [repeat constructor | split; vm_compute; reflexivity]. Qed.
Example bounds_example_asc_empty_window :
  Sorted (ordR true) [[2]; [4]; [7]] /\ find_bounds true [[2]; [4]; [7]] (Some [5]) (Some [5]) = Some (0, -1).
Proof. split; [repeat constructor | vm_compute; reflexivity]. Qed.

(* the first hypothesis is the bounds step of GetManyFromOrderPosition: the window search, or the
   whole slice when no window is given *)
Lemma get_many_page asc slice a (fr lm : nat) ft tu (s0 k : nat) :
  (if is_some ft || is_some tu then find_bounds asc a ft tu else Some (0, Z.of_nat (length slice) - 1))
    = Some (Z.of_nat s0, Z.of_nat (s0 + k) - 1) ->
  (s0 + k <= length slice)%nat ->
  get_many asc slice a (Z.of_nat fr) (Z.of_nat lm) ft tu =
    Some (page_of fr lm (firstn k (skipn s0 slice))).
Proof.
  intros B Hn. unfold get_many. rewrite B, page_of_cut. clear B.
  set (m := match lm with O => (k - fr)%nat | S _ => Nat.min lm (k - fr) end).
  set (st := Z.of_nat s0 + Z.of_nat fr). set (e := Z.of_nat (s0 + k) - 1).
  destruct (Z.gtb_spec st e) as [Big|Small].
  - (* offset beyond the interval: empty, whatever the test on the window says *)
    replace m with 0%nat by (unfold m; destruct lm; lia).
    destruct (_ && _); reflexivity.
  - (* the window is not empty and starts at an index *)
    replace (e <? Z.of_nat s0) with false by lia. replace (Z.of_nat s0 <? 0) with false by lia.
    rewrite andb_false_r.
    (* the cut has [m] entries *)
    set (en := if Z.of_nat lm =? 0 then e else if st + Z.of_nat lm - 1 >? e then e else st + Z.of_nat lm - 1).
    assert (Sz : en - st + 1 = Z.of_nat m /\ (0 < m)%nat /\ st + Z.of_nat m <= e + 1).
    { unfold en, m. clear Hn. destruct lm as [|lm]; [cbn [Z.of_nat Z.eqb]; lia|].
      replace (Z.of_nat (S lm) =? 0) with false by lia.
      destruct (Z.gtb_spec (st + Z.of_nat (S lm) - 1) e); lia. }
    destruct Sz as [-> [M0 M1]].
    (* so it passes the size and range guards *)
    replace (Z.of_nat m <=? 0) with false by lia.
    replace (st <? 0) with false by lia.
    replace (st + Z.of_nat m >? Z.of_nat (length slice)) with false by lia.
    unfold st. rewrite Nat2Z.id, <- Nat2Z.inj_add, Nat2Z.id, Nat.add_comm. reflexivity.
Qed.

Theorem page_correct_on_sorted asc (at_ : skey -> skey) slice from lim ft tu :
  Sorted (fun k1 k2 => ord_leb asc (at_ k1) (at_ k2) = true) slice ->
  0 <= from -> 0 <= lim ->
  get_many asc slice (map at_ slice) from lim ft tu =
    Some (page_of (Z.to_nat from) (Z.to_nat lim) (filter (fun k => win ft tu (at_ k)) slice)).
Proof.
  intros Srt Hf Hl.
  destruct (Z_of_nat_complete _ Hf) as [fr ->], (Z_of_nat_complete _ Hl) as [lm ->]. rewrite !Nat2Z.id.
  destruct (is_some ft || is_some tu) eqn:Wd.
  - destruct (window_bounds asc at_ slice ft tu Srt) as (s0 & k & F & L & ->).
    apply get_many_page; [rewrite Wd; exact F | exact L].
  - destruct ft, tu; try discriminate. rewrite filter_all by reflexivity.
    pose proof (get_many_page asc slice (map at_ slice) fr lm None None 0 (length slice) eq_refl (Nat.le_refl _)) as G.
    cbn [skipn] in G. rewrite firstn_all in G. exact G.
Qed.

Example page_example :
  get_many true [[1]; [2]; [3]; [4]] (map (fun k => k) [[1]; [2]; [3]; [4]]) 1 2 (Some [2]) None = Some [[3]; [4]].
Proof. vm_compute. reflexivity. Qed.

Definition attr_le (rs : list rec) (f : fam) (asc : bool) : skey -> skey -> Prop :=
  fun k1 k2 => ord_leb asc (key_attr rs f k1) (key_attr rs f k2) = true.

Definition good (rs : list rec) (vt : N) (f : fam) (asc : bool) (b : beacon) : Prop :=
  (b_init b = false -> b_slice b = []) /\
  (b_init b = true -> Permutation (b_slice b) (carrier_keys f vt rs) /\ Sorted (attr_le rs f asc) (b_slice b)).

(* the third clause is needed because the maintenance step tests the ASC flag for both directions *)
Definition Inv (s : st) : Prop :=
  NoDup (map r_key (recs s)) /\
  (forall f asc, good (recs s) (vtype s) f asc (bcn s f asc)) /\
  (forall f, b_init (bcn s f true) = b_init (bcn s f false)).

Lemma good_uninit rs vt f asc : good rs vt f asc b0.
Proof. split; [reflexivity | discriminate]. Qed.

Lemma sort_slice_good rs vt f asc l :
  Permutation l (carrier_keys f vt rs) -> good rs vt f asc (mkb true (sort_slice rs f asc l)).
Proof.
  intros P. split; [discriminate|]. intros _. split.
  - eapply perm_trans; [apply isort_perm | exact P].
  - apply (isort_sorted (fun k1 k2 => ord_leb asc (key_attr rs f k1) (key_attr rs f k2))).
    intros a b. apply ord_leb_total.
Qed.

Lemma existsb_skey k l : existsb (skey_eqb k) l = true <-> In k l.
Proof.
  rewrite existsb_exists. split.
  - intros [x [Hx E]]. apply skey_eqb_eq in E. subst. auto.
  - intros H. exists k. split; auto. apply skey_eqb_refl.
Qed.
Lemma slice_add_in k l : In k l -> slice_add k l = l.
Proof. intros H. unfold slice_add. apply existsb_skey in H. rewrite H. reflexivity. Qed.
Lemma slice_add_notin k l : ~ In k l -> slice_add k l = l ++ [k].
Proof. intros H. unfold slice_add. destruct (existsb (skey_eqb k) l) eqn:E; auto. apply existsb_skey in E. contradiction. Qed.
Lemma slice_add_cases k l : In k l /\ slice_add k l = l \/ ~ In k l /\ slice_add k l = l ++ [k].
Proof.
  destruct (in_dec (list_eq_dec Z.eq_dec) k l) as [H|H]; [left | right]; split; trivial.
  - apply slice_add_in, H.
  - apply slice_add_notin, H.
Qed.
Lemma slice_add_iff k l x : In x (slice_add k l) <-> x = k \/ In x l.
Proof.
  destruct (slice_add_cases k l) as [[H ->]|[H ->]]; [|rewrite in_app_iff; simpl]; intuition (subst; auto).
Qed.
Lemma slice_add_nodup k l : NoDup l -> NoDup (slice_add k l).
Proof.
  intros N. destruct (slice_add_cases k l) as [[H ->]|[H ->]]; [exact N|].
  eapply Permutation_NoDup; [apply Permutation_cons_append|]. constructor; assumption.
Qed.

(* beacon.Delete drops the first occurrence; the slices hold every key once *)
Lemma slice_del_filter k l : NoDup l -> slice_del k l = filter (fun x => negb (skey_eqb x k)) l.
Proof.
  induction 1 as [|x t Hx N IH]; simpl; auto.
  destruct (skey_eqb_spec x k) as [->|_]; simpl; [|f_equal; exact IH]. symmetry. apply filter_all.
  intros y Hy. apply negb_true_iff, skey_eqb_neq. congruence.
Qed.
Lemma slice_del_iff k l x : NoDup l -> (In x (slice_del k l) <-> In x l /\ x <> k).
Proof. intros N. rewrite (slice_del_filter k l N), filter_In, negb_true_iff, skey_eqb_neq. reflexivity. Qed.
Lemma slice_del_nodup k l : NoDup l -> NoDup (slice_del k l).
Proof. intros N. rewrite (slice_del_filter k l N). apply NoDup_filter, N. Qed.

Lemma find_rec_key k rs r : find_rec k rs = Some r -> In r rs /\ r_key r = k.
Proof.
  induction rs as [|x t IH]; simpl; [discriminate|]. destruct (skey_eqb_spec (r_key x) k) as [E|_].
  - intros H. inversion H; subst. auto.
  - intros H. destruct (IH H). auto.
Qed.
Lemma find_rec_none k rs : find_rec k rs = None <-> ~ In k (map r_key rs).
Proof.
  induction rs as [|x t IH]; simpl; [tauto|]. destruct (skey_eqb_spec (r_key x) k) as [E|E].
  - split; [discriminate | intros H; exfalso; apply H; auto].
  - rewrite IH. tauto.
Qed.
Lemma find_rec_in rs r : NoDup (map r_key rs) -> In r rs -> find_rec (r_key r) rs = Some r.
Proof.
  induction rs as [|x t IH]; simpl; intros N H; [contradiction|]. inversion N; subst.
  destruct H as [->|H]; [rewrite skey_eqb_refl; auto|].
  destruct (skey_eqb_spec (r_key x) (r_key r)) as [E|_]; [|auto].
  exfalso. apply H2. rewrite E. apply in_map. exact H.
Qed.

Lemma key_has_found rs f vt k r : find_rec k rs = Some r -> key_has rs f vt k = has_attr f vt r.
Proof. unfold key_has. intros ->. reflexivity. Qed.
Lemma key_attr_found rs f k r : find_rec k rs = Some r -> key_attr rs f k = raw_attr f r.
Proof. unfold key_attr. intros ->. reflexivity. Qed.
Lemma key_has_none rs f vt k : find_rec k rs = None -> key_has rs f vt k = false.
Proof. unfold key_has. intros ->. reflexivity. Qed.

Lemma nodup_keys_filter p rs : NoDup (map r_key rs) -> NoDup (map r_key (filter p rs)).
Proof.
  induction rs as [|x t IH]; simpl; intros N; auto. inversion N; subst.
  destruct (p x); simpl; auto. constructor; auto. intros H. apply H1.
  apply in_map_iff in H. destruct H as [r [E Hr]]. apply filter_In in Hr. rewrite <- E. apply in_map. tauto.
Qed.

Lemma carrier_in rs f vt k : NoDup (map r_key rs) -> (In k (carrier_keys f vt rs) <-> key_has rs f vt k = true).
Proof.
  intros N. unfold carrier_keys, key_has. rewrite in_map_iff. split.
  - intros [r [<- Hr]]. apply filter_In in Hr. destruct Hr as [Hr Ha]. rewrite (find_rec_in rs r N Hr). exact Ha.
  - destruct (find_rec k rs) as [r|] eqn:E; [|discriminate]. intros Ha. apply find_rec_key in E.
    exists r. split; [tauto|]. apply filter_In. tauto.
Qed.

(* both lists hold every key once, so the permutation is an equivalence of membership *)
Lemma carriers_perm rs f vt l : NoDup (map r_key rs) ->
  (Permutation l (carrier_keys f vt rs) <-> NoDup l /\ forall k, In k l <-> key_has rs f vt k = true).
Proof.
  intros N. pose proof (nodup_keys_filter (has_attr f vt) rs N) as NC. split.
  - intros P. split; [eapply Permutation_NoDup; [apply Permutation_sym, P | exact NC]|].
    intros k. rewrite <- (carrier_in rs f vt k N).
    split; apply Permutation_in; [|apply Permutation_sym]; exact P.
  - intros [ND M]. apply NoDup_Permutation; auto. intros k. rewrite M. symmetry. apply carrier_in, N.
Qed.

Lemma find_rec_app k rs r :
  find_rec k (rs ++ [r]) =
  match find_rec k rs with Some x => Some x | None => if skey_eqb (r_key r) k then Some r else None end.
Proof. induction rs as [|x t IH]; simpl; auto. destruct (skey_eqb (r_key x) k); auto. Qed.

Lemma find_rec_replace k rs r : find_rec (r_key r) rs <> None ->
  find_rec k (replace_rec r rs) = if skey_eqb (r_key r) k then Some r else find_rec k rs.
Proof.
  induction rs as [|x t IH]; simpl; [contradiction|].
  destruct (skey_eqb_spec (r_key x) (r_key r)) as [E|E]; simpl.
  - intros _. rewrite E. destruct (skey_eqb (r_key r) k); auto.
  - intros H. rewrite (IH H). destruct (skey_eqb_spec (r_key x) k) as [E2|_]; auto.
    destruct (skey_eqb_spec (r_key r) k) as [E3|_]; auto. congruence.
Qed.
Lemma replace_keys r rs : map r_key (replace_rec r rs) = map r_key rs.
Proof.
  induction rs as [|x t IH]; simpl; auto. destruct (skey_eqb_spec (r_key x) (r_key r)); simpl; congruence.
Qed.

Lemma remove_keys k rs : map r_key (remove_rec k rs) = slice_del k (map r_key rs).
Proof. induction rs as [|x t IH]; simpl; auto. destruct (skey_eqb (r_key x) k); simpl; congruence. Qed.
Lemma find_rec_remove k' k rs : k' <> k -> find_rec k' (remove_rec k rs) = find_rec k' rs.
Proof.
  intros Hk. induction rs as [|x t IH]; simpl; auto. destruct (skey_eqb_spec (r_key x) k) as [E|_]; simpl.
  - destruct (skey_eqb_spec (r_key x) k'); [congruence | reflexivity].
  - rewrite IH. reflexivity.
Qed.
Lemma find_rec_removed k rs : NoDup (map r_key rs) -> find_rec k (remove_rec k rs) = None.
Proof. intros N. apply find_rec_none. rewrite remove_keys, (slice_del_iff k _ k N). tauto. Qed.

Definition touches (k : skey) (rs rs' : list rec) : Prop :=
  NoDup (map r_key rs') /\ forall k', k' <> k -> find_rec k' rs' = find_rec k' rs.

Lemma touches_append rs r : NoDup (map r_key rs) -> find_rec (r_key r) rs = None -> touches (r_key r) rs (rs ++ [r]).
Proof.
  intros N Fr. split.
  - rewrite map_app. eapply Permutation_NoDup; [apply Permutation_cons_append|].
    constructor; [apply find_rec_none, Fr | exact N].
  - intros k' Hk. rewrite find_rec_app. destruct (find_rec k' rs); auto.
    destruct (skey_eqb_spec (r_key r) k'); [congruence | reflexivity].
Qed.
Lemma touches_replace rs r : NoDup (map r_key rs) -> find_rec (r_key r) rs <> None -> touches (r_key r) rs (replace_rec r rs).
Proof.
  intros N Fr. split; [rewrite replace_keys; exact N|].
  intros k' Hk. rewrite (find_rec_replace k' rs r Fr).
  destruct (skey_eqb_spec (r_key r) k'); [congruence | reflexivity].
Qed.
Lemma touches_remove rs k : NoDup (map r_key rs) -> touches k rs (remove_rec k rs).
Proof.
  intros N. split; [rewrite remove_keys; apply slice_del_nodup, N|].
  intros k' Hk. apply find_rec_remove, Hk.
Qed.

Lemma upd_good rs rs' vt f asc k del add b :
  NoDup (map r_key rs) -> touches k rs rs' ->
  good rs vt f asc b ->
  key_has rs' f vt k = key_has rs f vt k && negb del || add ->
  (del = false -> add = false -> key_has rs f vt k = true -> key_attr rs' f k = key_attr rs f k) ->
  good rs' vt f asc (upd_beacon (sort_slice rs' f) asc del add k (b_init b) b).
Proof.
  intros N [N' Fr] G HM HA. destruct b as [[|] l]; unfold upd_beacon; cbn [b_init b_slice].
  2:{ rewrite !andb_false_r. split; [apply G | discriminate]. }
  rewrite !andb_true_r. destruct (proj2 G eq_refl) as [P S]. clear G. cbn [b_slice] in P, S.
  apply (carriers_perm rs f vt _ N) in P as [ND M].
  assert (Fk : forall x, x <> k ->
            key_attr rs' f x = key_attr rs f x /\ key_has rs' f vt x = key_has rs f vt x).
  { intros x Hx. unfold key_attr, key_has. rewrite (Fr x Hx). auto. }
  (* the slice after the delete is a filter of the old one *)
  set (stays := fun x => negb (del && skey_eqb x k)).
  replace (if del then mkb true (slice_del k l) else mkb true l) with (mkb true (filter stays l)).
  2:{ unfold stays. destruct del; cbn; [rewrite (slice_del_filter k l ND) | rewrite filter_all]; auto. }
  set (l1 := filter stays l). cbn [b_slice].
  assert (ND1 : NoDup l1) by apply NoDup_filter, ND.
  assert (M2 : forall x, In x l1 \/ add = true /\ x = k <-> key_has rs' f vt x = true).
  { intros x. unfold l1, stays. rewrite filter_In, M. destruct (skey_eqb_spec x k) as [->|Hx].
    - rewrite HM. destruct (key_has rs f vt k), del, add; cbn; intuition congruence.
    - rewrite (proj2 (Fk x Hx)), andb_false_r. cbn. intuition congruence. }
  destruct add.
  - apply sort_slice_good, (carriers_perm rs' f vt _ N'). split; [apply slice_add_nodup, ND1|].
    intros x. rewrite slice_add_iff, <- M2. intuition.
  - split; [discriminate|]. intros _. split.
    + apply (carriers_perm rs' f vt _ N'). split; [exact ND1|]. intros x. rewrite <- M2. intuition discriminate.
    + (* what stays keeps its attribute, so it stays sorted *)
      apply (filter_sorted _ stays) in S; [|intros x y z; apply ord_leb_trans].
      eapply Sorted_ext_in; [|exact S]. intros x y Hx Hy. unfold attr_le.
      assert (E : forall z, In z l1 -> key_attr rs' f z = key_attr rs f z).
      { intros z Hz. apply filter_In in Hz. destruct Hz as [Hz Hs]. unfold stays in Hs.
        destruct (skey_eqb_spec z k) as [->|Hk]; [|apply Fk, Hk].
        destruct del; [discriminate|]. apply HA; auto. apply M, Hz. }
      rewrite !E by assumption. auto.
Qed.

Lemma upd_beacon_init srt asc del add k b : b_init (upd_beacon srt asc del add k (b_init b) b) = b_init b.
Proof. unfold upd_beacon. destruct (b_init b) eqn:E, del, add; cbn; auto. Qed.

Lemma upd_all_inv s rs' del add k :
  Inv s -> touches k (recs s) rs' ->
  (forall f, key_has rs' f (vtype s) k = key_has (recs s) f (vtype s) k && negb (del f) || add f) ->
  (forall f, del f = false -> add f = false -> key_has (recs s) f (vtype s) k = true ->
             key_attr rs' f k = key_attr (recs s) f k) ->
  Inv (upd_all s rs' (resort false rs') del add k).
Proof.
  intros [N [G I]] T HM HA. split; [|split]; cbn.
  - apply T.
  - intros f asc. replace (b_init (bcn s f true)) with (b_init (bcn s f asc)) by (destruct asc; auto).
    change (resort false rs' f) with (sort_slice rs' f). apply upd_good with (rs := recs s); auto.
  - intros f. rewrite upd_beacon_init, (I f), upd_beacon_init. reflexivity.
Qed.

Lemma inv_init : Inv init_st.
Proof. split; [constructor | split]; cbn; auto. intros f asc. apply good_uninit. Qed.

(* deleted-and-re-added when refreshed, untouched otherwise *)
Lemma refresh_bool (now was d : bool) : (d = false -> now = was) -> now = was && negb d || d && now.
Proof. destruct d; intros H; [|rewrite (H eq_refl)]; destruct was; reflexivity. Qed.

Lemma inv_set s k ct v c u e : Inv s -> Inv (do_set false s k ct v c u e).
Proof.
  intros I. pose proof I as [N _]. unfold do_set. destruct (find_rec k (recs s)) as [old|] eqn:F.
  - set (r := mkrec k ct v _ _ _ _ _ _).
    assert (Fk : find_rec (r_key r) (recs s) <> None) by (cbn; congruence).
    assert (F' : find_rec k (replace_rec r (recs s)) = Some r).
    { rewrite (find_rec_replace k _ r Fk). cbn. rewrite skey_eqb_refl. reflexivity. }
    pose proof (find_rec_key _ _ _ F) as [_ Ko].
    (* an index that the save does not refresh is one whose attribute the request did not set *)
    assert (Keep : forall f, refreshed false r f = false ->
              has_attr f (vtype s) r = has_attr f (vtype s) old /\ raw_attr f r = raw_attr f old).
    { intros f Hd. destruct f; cbn in Hd |- *.
      - rewrite Ko. auto.
      - destruct c; [discriminate | auto].
      - destruct u; [discriminate | auto].
      - destruct e; [discriminate | auto].
      - discriminate. }
    apply upd_all_inv; auto.
    + apply (touches_replace _ r N Fk).
    + intros f. rewrite (key_has_found _ f _ _ _ F'), (key_has_found _ f _ _ _ F).
      apply refresh_bool. intros Hd. apply Keep, Hd.
    + intros f Hd _ _. rewrite (key_attr_found _ f _ _ F'), (key_attr_found _ f _ _ F). apply Keep, Hd.
  - set (r := mkrec k ct v _ _ _ _ _ _).
    assert (F' : find_rec k (recs s ++ [r]) = Some r).
    { rewrite find_rec_app, F. cbn. rewrite skey_eqb_refl. reflexivity. }
    apply upd_all_inv; auto.
    + apply (touches_append _ r N F).
    + intros f. rewrite (key_has_found _ f _ _ _ F'), (key_has_none _ f _ _ F). reflexivity.
    + intros f _ _. rewrite (key_has_none _ f _ _ F). discriminate.
Qed.

Lemma inv_del s k : Inv s -> Inv (do_del s k).
Proof.
  intros I. pose proof I as [N _]. unfold do_del. destruct (find_rec k (recs s)) eqn:F; auto.
  pose proof (find_rec_removed k (recs s) N) as Fk.
  pose proof (touches_remove (recs s) k N) as T.
  destruct (remove_rec k (recs s)) as [|x t] eqn:E; [apply inv_init|].
  apply upd_all_inv; auto.
  - intros f. rewrite (key_has_none _ f _ _ Fk), andb_false_r. reflexivity.
  - discriminate.
Qed.

Lemma carrier_keys_vt f vt vt' rs : f <> FValue -> carrier_keys f vt rs = carrier_keys f vt' rs.
Proof. intros H. unfold carrier_keys. f_equal. apply filter_ext. intros r. destruct f; auto. contradiction. Qed.

(* findInValueBeacon resets the value pair when it was built for another value type *)
Definition prepared (s : st) (i : idx) : st := match i with IValue vt => prepare_value s vt | _ => s end.

Lemma inv_prepare s i :
  Inv s ->
  Inv (prepared s i) /\ recs (prepared s i) = recs s /\
  carrier_keys (fam_of i) (vtype (prepared s i)) (recs s) = carrier_keys (fam_of i) (vt_of i 0%N) (recs s).
Proof.
  intros I. destruct i as [| | | |vt]; cbn;
    [split; [exact I | split; [reflexivity | apply carrier_keys_vt; discriminate]] .. |].
  (* IValue vt *)
  unfold prepare_value. destruct (N.eqb_spec (vtype s) vt) as [<-|NE]; [auto|].
  destruct I as [N [G I]]. split; [|auto]. split; [exact N | split]; cbn.
  - intros f asc. destruct f; cbn;
      [unfold good; rewrite (carrier_keys_vt _ vt (vtype s)) by discriminate; apply G .. |].
    (* FValue *) apply good_uninit.
  - intros f. destruct f; cbn; auto.
Qed.

Lemma inv_build s f cs :
  Inv s -> Permutation cs (carrier_keys f (vtype s) (recs s)) ->
  Inv (build_family s f cs) /\ forall asc, b_init (bcn (build_family s f cs) f asc) = true.
Proof.
  intros [N [G I]] P.
  assert (BG : forall asc, good (recs s) (vtype s) f asc (build_beacon (recs s) f asc cs (bcn s f asc))).
  { intros asc. unfold build_beacon. destruct (b_init (bcn s f asc)) eqn:E; [apply G|].
    destruct (G f asc) as [G0 _]. rewrite (G0 E). cbn [app]. apply sort_slice_good. exact P. }
  assert (BI : forall asc, b_init (build_beacon (recs s) f asc cs (bcn s f asc)) = true).
  { intros asc. unfold build_beacon. destruct (b_init (bcn s f asc)) eqn:E; auto. }
  split; cbn.
  - split; [|split]; cbn; auto.
    + intros f' asc. destruct (fam_eqb_spec f' f) as [->|_]; [apply BG | apply G].
    + intros f'. destruct (fam_eqb_spec f' f) as [->|_]; [rewrite !BI; auto | apply I].
  - intros asc. destruct (fam_eqb_spec f f); [apply BI | contradiction].
Qed.

Lemma inv_mark_init s f asc :
  Inv s -> b_init (bcn s f asc) = true -> Inv (set_bcn s f asc (mkb true (b_slice (bcn s f asc)))).
Proof.
  intros [N [G I]] Hi.
  assert (E : mkb true (b_slice (bcn s f asc)) = bcn s f asc) by (destruct (bcn s f asc); cbn in *; congruence).
  rewrite E. split; [|split]; cbn; auto.
  - intros f' a'. destruct (fam_eqb_spec f' f) as [->|_]; [|apply G].
    destruct (Bool.eqb_spec a' asc) as [->|_]; apply G.
  - intros f'. destruct (fam_eqb_spec f' f) as [->|_]; cbn; [|apply I]. destruct asc; cbn; apply I.
Qed.

(* the state in which GetManyFromOrderPosition runs *)
Definition read_state (s : st) (i : idx) : st :=
  build_family (prepared s i) (fam_of i) (carrier_keys (fam_of i) (vt_of i 0%N) (recs s)).

Lemma read_state_inv s i :
  Inv s ->
  Inv (read_state s i) /\ (forall asc, b_init (bcn (read_state s i) (fam_of i) asc) = true) /\
  recs (read_state s i) = recs s /\
  carrier_keys (fam_of i) (vtype (read_state s i)) (recs s) = carrier_keys (fam_of i) (vt_of i 0%N) (recs s).
Proof.
  intros I. destruct (inv_prepare s i I) as [I0 [Er Ec]]. unfold read_state.
  destruct (inv_build (prepared s i) (fam_of i) (carrier_keys (fam_of i) (vt_of i 0%N) (recs s)) I0) as [A B].
  - rewrite Er, Ec. apply Permutation_refl.
  - split; [exact A | split; [exact B | split; [exact Er | exact Ec]]].
Qed.

Lemma do_read_eq s i asc from lim ft tu :
  do_read false s i asc from lim ft tu =
  let s1 := read_state s i in
  let f := fam_of i in
  let b := bcn s1 f asc in
  let w (o : option Z) := if is_time f then option_map (fun z => [z]) o else None in
  (set_bcn s1 f asc (mkb true (b_slice b)),
   get_many asc (b_slice b) (map (key_attr (recs s1) f) (b_slice b)) (Z.of_N from)
            (if N.eqb lim 0 then Z.of_nat (length (recs s)) else Z.of_N lim) (w ft) (w tu)).
Proof. destruct i; reflexivity. Qed.

Lemma inv_step s o : Inv s -> Inv (fst (step false s o)).
Proof.
  intros I. destruct o; cbn [step].
  - apply inv_set, I.
  - apply inv_del, I.
  - rewrite do_read_eq. cbv zeta. cbn [fst].
    destruct (read_state_inv s i I) as [A [B _]]. apply inv_mark_init; auto.
Qed.

Lemma inv_run ops : forall s, Inv s -> Inv (run false s ops).
Proof. induction ops as [|o t IH]; cbn [run]; intros s I; auto. apply IH, inv_step, I. Qed.

Theorem read_is_spec_page s i asc from lim ft tu :
  Inv s ->
  exists page, snd (do_read false s i asc from lim ft tu) = Some page /\
               is_spec_page (recs s) i asc from lim ft tu page.
Proof.
  intros I. pose proof I as [N _].
  rewrite do_read_eq. cbv zeta. cbn [snd].
  destruct (read_state_inv s i I) as [[_ [G _]] [B [Er Ec]]].
  set (f := fam_of i) in *. destruct (G f asc) as [_ G']. destruct (G' (B asc)) as [P S]. clear G G'.
  rewrite Er in *. rewrite Ec in P. set (rs := recs s) in *.
  (* the slice as the list of the records it points to *)
  destruct (Permutation_map_inv r_key _ P) as [Rs [ES PR]]. rewrite ES in *. clear P ES.
  assert (KA : forall r, In r Rs -> key_attr rs f (r_key r) = raw_attr f r).
  { intros r Hr. apply key_attr_found, find_rec_in; [exact N|].
    apply (Permutation_in _ (Permutation_sym PR)), filter_In in Hr. tauto. }
  rewrite page_correct_on_sorted by (try exact S; destruct (N.eqb lim 0); lia).
  eexists. split; [reflexivity|].
  exists (filter (fun r => in_win f ft tu (raw_attr f r)) Rs). split; [|split].
  - unfold wanted. rewrite filter_and. apply filter_perm, Permutation_sym, PR.
  - apply filter_sorted; [intros x y z; apply ord_leb_trans|].
    apply (proj2 (Sorted_map r_key (attr_le rs f asc) Rs)) in S. eapply Sorted_ext_in; [|exact S].
    intros x y Hx Hy. unfold attr_le, rec_le. rewrite !KA by assumption. auto.
  - rewrite filter_map_swap, page_of_map. f_equal.
    rewrite (filter_ext_in _ (fun r => in_win f ft tu (raw_attr f r)))
      by (intros r Hr; rewrite win_in_win, (KA r Hr); reflexivity).
    replace (Z.to_nat (Z.of_N from)) with (N.to_nat from) by lia.
    destruct (N.eqb_spec lim 0) as [->|LN].
    + rewrite Nat2Z.id. apply page_of_count.
      eapply Nat.le_trans; [apply filter_len_le|]. rewrite <- (Permutation_length PR). apply filter_len_le.
    + replace (Z.to_nat (Z.of_N lim)) with (N.to_nat lim) by lia. reflexivity.
Qed.

Lemma nodupb_iff l : nodupb l = true <-> NoDup l.
Proof.
  induction l as [|x t IH]; simpl; [split; auto; constructor|].
  rewrite andb_true_iff, negb_true_iff, IH, <- not_true_iff_false, existsb_skey. split.
  - intros [H1 H2]. constructor; auto.
  - intros H. inversion H; auto.
Qed.
Lemma skeys_eqb_eq (a b : list skey) : list_eqb skey_eqb a b = true <-> a = b.
Proof. apply list_eqb_eq. exact skey_eqb_eq. Qed.

Lemma lookup_all_spec W page P : lookup_all W page = Some P -> map r_key P = page /\ incl P W.
Proof.
  revert P. induction page as [|k t IH]; simpl; intros P H.
  - inversion H; subst. split; auto. intros r [].
  - destruct (find_rec k W) as [r|] eqn:F; [|discriminate]. destruct (lookup_all W t) as [l|]; [|discriminate].
    inversion H; subst. destruct (IH l eq_refl) as [A B]. destruct (find_rec_key _ _ _ F) as [C D].
    split; simpl; [congruence|]. intros x [<-|Hx]; auto.
Qed.
Lemma lookup_all_complete W Q : NoDup (map r_key W) -> incl Q W -> lookup_all W (map r_key Q) = Some Q.
Proof.
  intros N. induction Q as [|r t IH]; simpl; intros H; auto.
  rewrite (find_rec_in W r N), IH; auto using in_eq; intros x Hx; apply H; right; exact Hx.
Qed.

Lemma valid_page_complete rs i asc from lim ft tu page :
  NoDup (map r_key rs) -> is_spec_page rs i asc from lim ft tu page ->
  valid_page rs i asc from lim ft tu page = true.
Proof.
  intros N [L [P [S E]]]. unfold valid_page.
  set (W := wanted rs i ft tu) in *. set (f := fam_of i) in *.
  assert (NW : NoDup (map r_key W)) by (apply nodup_keys_filter; exact N).
  assert (Inc : incl (page_of (N.to_nat from) (N.to_nat lim) L) W).
  { intros r Hr. eapply Permutation_in; [exact P|]. eapply page_of_incl; eauto. }
  rewrite E, (lookup_all_complete W _ NW Inc). apply andb_true_iff. split.
  - apply nodupb_iff. rewrite <- page_of_map. apply nodup_page_of.
    eapply Permutation_NoDup; [apply Permutation_sym, Permutation_map; exact P | exact NW].
  - (* the attributes of the wanted records in index order are the sorted attribute list *)
    apply skeys_eqb_eq. rewrite <- page_of_map. f_equal.
    apply (sorted_perm_unique (ordR asc) (ord_leb_trans asc) (ord_leb_antisym asc)).
    + apply (proj1 (Sorted_map (raw_attr f) (ordR asc) L)). exact S.
    + apply isort_sorted. intros a b. apply ord_leb_total.
    + eapply perm_trans; [apply Permutation_map; exact P | apply Permutation_sym, isort_perm].
Qed.

Lemma valid_page_sound rs i asc from lim ft tu page :
  valid_page rs i asc from lim ft tu page = true -> is_spec_page rs i asc from lim ft tu page.
Proof.
  unfold valid_page, is_spec_page.
  set (W := wanted rs i ft tu). set (g := raw_attr (fam_of i)).
  set (fr := N.to_nat from). set (lm := N.to_nat lim).
  destruct (lookup_all W page) as [P|] eqn:LA; [|discriminate].
  intros H. apply andb_true_iff in H. destruct H as [ND EQ].
  apply nodupb_iff in ND. apply skeys_eqb_eq in EQ.
  destruct (lookup_all_spec _ _ _ LA) as [KP PW]. rewrite <- KP in ND |- *. apply NoDup_map_inv in ND.
  destruct (nodup_incl_split P W ND PW) as [Rm PermW].
  set (aS := isort (ord_leb asc) (map g W)) in *.
  (* the sorted attributes are A ++ (those of the page) ++ B; the records outside the page can be
     arranged to carry A ++ B *)
  destruct (page_of_split fr lm aS) as [B Split]. rewrite <- EQ in Split.
  assert (PR : Permutation (firstn fr aS ++ B) (map g Rm)).
  { apply (Permutation_app_inv_m (map g P) _ _ []). simpl. rewrite <- Split, <- map_app.
    eapply perm_trans; [apply isort_perm | apply Permutation_map, PermW]. }
  destruct (Permutation_map_inv g _ PR) as [R [ER PRm]].
  destruct (map_eq_app _ _ _ _ (eq_sym ER)) as (R1 & R2 & -> & E1 & E2).
  set (L := R1 ++ P ++ R2).
  assert (MG : map g L = aS) by (unfold L; rewrite !map_app, E1, E2; symmetry; exact Split).
  exists L. split; [|split].
  - eapply perm_trans; [apply Permutation_app_swap_app|].
    eapply perm_trans; [|apply Permutation_sym, PermW]. apply Permutation_app_head, Permutation_sym, PRm.
  - apply (proj2 (Sorted_map g (ordR asc) L)). rewrite MG. apply isort_sorted. intros a b. apply ord_leb_total.
  - (* the page of L sits where P sits: both splits of L have parts of the same lengths *)
    f_equal. destruct (page_of_split fr lm L) as [B' Sp]. unfold L in Sp at 1.
    apply app_inv_length in Sp as [_ Sp].
    + apply app_inv_length in Sp as [Sp _]; [exact Sp|].
      rewrite <- (map_length g P), EQ, <- MG, page_of_map. apply map_length.
    + rewrite <- (map_length g R1), E1, <- MG, firstn_map. apply map_length.
Qed.

Example valid_page_example_ties :
  let rs := [mkrec [97] 7 [5] 0 0 0 false false false; mkrec [98] 7 [5] 0 0 0 false false false;
             mkrec [99] 7 [1] 0 0 0 false false false] in
  valid_page rs (IValue 7) true 1 1 None None [[97]] = true /\
  valid_page rs (IValue 7) true 1 1 None None [[98]] = true /\
  valid_page rs (IValue 7) true 1 1 None None [[99]] = false.
Proof. vm_compute. auto. Qed.

(* Two histories on which the maintenance rules of the pinned commit (legacy = true) end in a read
   that is not a valid page (stated in Props/C07.v).
   (a) Float64 value index built by a read, then one insert: the ascending read returns
       1.5 2.5 3.5 0.5 (values in quarters: 6 10 14 2). *)
Definition legacy_witness_a : list op :=
  [OSet [97] 13%N [6] None None None; OSet [98] 13%N [10] None None None; OSet [99] 13%N [14] None None None;
   ORead (IValue 13%N) true 0%N 0%N None None;
   OSet [100] 13%N [2] None None None].
(* (b) UpdatedAt of an indexed record moved by an update; the update-time read is unsorted *)
Definition legacy_witness_b : list op :=
  [OSet [97] 7%N [1] None (Some 10) None; OSet [98] 7%N [2] None (Some 20) None; OSet [99] 7%N [3] None (Some 30) None;
   ORead IUpdated true 0%N 0%N None None;
   OSet [97] 7%N [1] None (Some 80) None].

Definition legacy_read_valid (ops : list op) (i : idx) : bool :=
  let s := run true init_st ops in
  match snd (do_read true s i true 0%N 0%N None None) with
  | Some page => valid_page (recs s) i true 0%N 0%N None None page
  | None => false
  end.

(* the same histories under the current rules (the second one read with a time window) *)
Example current_witness_a_page :
  snd (do_read false (run false init_st legacy_witness_a) (IValue 13%N) true 0%N 0%N None None)
  = Some [[100]; [97]; [98]; [99]].
Proof. vm_compute. reflexivity. Qed.
Example current_witness_b_page :
  snd (do_read false (run false init_st legacy_witness_b) IUpdated true 0%N 0%N (Some 15) (Some 81))
  = Some [[98]; [99]; [97]].
Proof. vm_compute. reflexivity. Qed.

(* the tabulation used by the case checker does not change the state *)
Lemma freeze_ext s : recs (freeze s) = recs s /\ vtype (freeze s) = vtype s /\
  forall f a, bcn (freeze s) f a = bcn s f a.
Proof. split; [reflexivity | split; [reflexivity|]]. intros f a. destruct f, a; reflexivity. Qed.
