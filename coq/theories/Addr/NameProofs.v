(* Addr/NameProofs.v — lemmas about swamp addressing ([Addr/Name.v]) from which the C20
   theorems are proved, in four independent groups: the xxHash64 test vectors and the two hashes
   of the name a/b/c; the clamp of the directory slices ([dir_parts_clamp]) and what held without
   it; splitting at the separator ([split_sep_prefix] and its corollaries), by which [path_of] is
   injective on separator-free names ([path_of_inj]); the island routing table ([route_h_sound],
   [route_h_complete]).  By itself: computing the island leaves name and path of the name object
   as they were ([query_keeps_name]). *)
From HV Require Import Base.Prelude Addr.XXHash64 Addr.Name.
Local Open Scope N_scope.

Theorem xxh64_vectors :
  xxh64 [] = 0xef46db3751d8e999 /\
  xxh64 [97] = 0xd24ec4f1a98c6e5b /\
  xxh64 [97;98;99] = 0x44bc2cf5ad770999 /\
  xxh64 [97;47;98;47;99] = 0xe94f700086cf8f20.
Proof. vm_compute. repeat split. Qed.   (* [split] on an unevaluated equation would run the hash in the unifier *)

Definition tABC : triple := {| sanct := [97]; realm := [98]; swamp := [99] |}.

(* the two hashes of the name a/b/c, for the closed examples *)
Lemma island_key_abc : xxh64 (island_key tABC) = 0x44bc2cf5ad770999.
Proof. exact (proj1 (proj2 (proj2 xxh64_vectors))). Qed.

Lemma path_abc : xxh64 (path_of tABC) = 0xe94f700086cf8f20.
Proof. exact (proj2 (proj2 (proj2 xxh64_vectors))). Qed.

(* the remainder as a variable with its bound: [lia] translates N.modulo to Z.modulo and loses
   its sign *)
Lemma mod_bound : forall x n, 0 < n -> exists m, x mod n = m /\ m < n.
Proof. intros x n Hn. exists (x mod n). split; [reflexivity | apply N.mod_lt; lia]. Qed.

(* the clamp makes the computation total and moves nothing: wherever the unclamped code
   produced a path, the clamped code produces the same one *)
Lemma dir_parts_clamp : forall depth hx cpl i, exists y,
  dir_parts true hx cpl i depth = Some y /\
  forall x, dir_parts false hx cpl i depth = Some x -> x = y.
Proof.
  induction depth as [|d IH]; intros hx cpl i; cbn [dir_parts negb].
  - exists []. split; [reflexivity | congruence].
  - destruct (IH hx cpl (i + 1)) as (y & Hy & Hx). rewrite andb_false_r, Hy. eexists. split; [reflexivity|].
    intros x H. destruct (N.of_nat (length hx) <? i * cpl); cbn [andb] in H; [discriminate|].
    destruct (dir_parts false hx cpl (i + 1) d) as [r|]; [|discriminate].
    rewrite (Hx r eq_refl) in H. congruence.
Qed.

(* without the clamp the computation was total within the hash string *)
Theorem dir_parts_partial_without_clamp : forall depth hx cpl i,
  (depth = O \/ (i + N.of_nat depth - 1) * cpl <= N.of_nat (length hx)) ->
  dir_parts false hx cpl i depth <> None.
Proof.
  induction depth as [|d IH]; intros hx cpl i H; simpl; [discriminate|].
  destruct H as [H|H]; [discriminate|].
  assert (Hs : (N.of_nat (length hx) <? i * cpl) = false).
  { apply N.ltb_ge. etransitivity; [|exact H]. apply N.mul_le_mono_r. lia. }
  rewrite Hs. simpl.
  assert (Hd : dir_parts false hx cpl (i + 1) d <> None).
  { apply IH. destruct d; [left; reflexivity | right].
    replace (i + 1 + N.of_nat (S d) - 1) with (i + N.of_nat (S (S d)) - 1) by lia. exact H. }
  destruct (dir_parts false hx cpl (i + 1) d); [discriminate | contradiction].
Qed.

Example locate_example :
  option_map (render ROOT) (locate true tABC 3 2 1000) =
  Some [47;114;47;51;47;101;57;52;47;102;55;48;47;101;57;52;102;55;48;48;48;56;54;99;102;56;102;50;48].
Proof.   (* /r/3/e94/f70/e94f700086cf8f20 *)
  unfold locate, hashed_dir, swamp_folder. rewrite path_abc. vm_compute. reflexivity.
Qed.

Lemma split_sep_prefix : forall a b cur,
  ~ In SEP a -> split_sep (a ++ b) cur = split_sep b (rev a ++ cur).
Proof.
  induction a as [|x a IH]; intros b cur Ha; simpl; [reflexivity|].
  destruct (N.eqb_spec x SEP) as [E|_]; [exfalso; apply Ha; left; exact E|].
  rewrite IH by (intro H; apply Ha; right; exact H). rewrite <- app_assoc. reflexivity.
Qed.

Lemma split_sep_app : forall a rest,
  ~ In SEP a -> split_sep (a ++ SEP :: rest) [] = a :: split_sep rest [].
Proof.
  intros a rest Ha. rewrite split_sep_prefix by exact Ha. simpl.
  rewrite app_nil_r, rev_involutive. reflexivity.
Qed.

Lemma split_sep_nosep : forall a, ~ In SEP a -> split_sep a [] = [a].
Proof.
  intros a Ha. rewrite <- (app_nil_r a) at 1. rewrite split_sep_prefix by exact Ha. simpl.
  rewrite app_nil_r, rev_involutive. reflexivity.
Qed.

Definition sepfree (t : triple) : Prop := ~ In SEP (sanct t) /\ ~ In SEP (realm t).

Lemma path_of_inj : forall t t', sepfree t -> sepfree t' -> path_of t = path_of t' -> t = t'.
Proof.
  intros [s r w] [s' r' w'] [Hs Hr] [Hs' Hr'] E. unfold path_of in E. simpl in *.
  pose proof (f_equal (fun p => split_sep p []) E) as F. cbv beta in F.
  rewrite !split_sep_app in F by assumption. injection F as -> -> _.
  apply app_inv_head in E. injection E as E. apply app_inv_head in E. injection E as ->.
  reflexivity.
Qed.

Theorem query_keeps_name : forall o n,
  obj_triple (snd (obj_island_sdk o n)) = obj_triple o /\ o_path (snd (obj_island_sdk o n)) = o_path o /\
  obj_triple (snd (obj_island_srv o n)) = obj_triple o /\ o_path (snd (obj_island_srv o n)) = o_path o.
Proof.
  intros o n. unfold obj_island_sdk, obj_island_srv, cached_island.
  destruct (o_isl_sdk o =? 0), (o_isl_srv o =? 0); repeat split.
Qed.

Lemma route_h_app : forall tb e island,
  route_h (tb ++ [e]) island =
  let '(h, (lo, hi)) := e in if (lo <=? island) && (island <=? hi) then Some h else route_h tb island.
Proof. intros tb [h [lo hi]] island. unfold route_h. rewrite fold_left_app. reflexivity. Qed.

Theorem route_h_sound : forall tb island h,
  route_h tb island = Some h ->
  exists pre lo hi post, tb = pre ++ (h, (lo, hi)) :: post /\ lo <= island /\ island <= hi /\
    route_h post island = None.
Proof.
  induction tb as [|e tb IH] using rev_ind; intros island h H; [discriminate|].
  rewrite route_h_app in H. destruct e as [h' [lo hi]].
  destruct ((lo <=? island) && (island <=? hi)) eqn:E.
  - injection H as <-. exists tb, lo, hi, []. apply andb_true_iff in E as [E1 E2].
    apply N.leb_le in E1, E2. repeat split; auto.
  - destruct (IH island h H) as [pre [lo' [hi' [post [-> [H1 [H2 H3]]]]]]].
    exists pre, lo', hi', (post ++ [(h', (lo, hi))]).
    split; [rewrite <- app_assoc; reflexivity|]. repeat split; auto.
    rewrite route_h_app, E. exact H3.
Qed.

Theorem route_h_complete : forall tb island h lo hi,
  In (h, (lo, hi)) tb -> lo <= island -> island <= hi -> route_h tb island <> None.
Proof.
  induction tb as [|e tb IH] using rev_ind; intros island h lo hi Hin H1 H2; [contradiction|].
  rewrite route_h_app. destruct e as [h' [lo' hi']].
  destruct ((lo' <=? island) && (island <=? hi')) eqn:E; [discriminate|].
  apply in_app_or in Hin as [Hin|[Heq|[]]].
  - eapply IH; eauto.
  - injection Heq as -> -> ->. apply N.leb_le in H1, H2. rewrite H1, H2 in E. discriminate.
Qed.
