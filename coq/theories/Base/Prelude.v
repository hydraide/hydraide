(* Base/Prelude.v — common imports and small executable helpers shared by all models, and a
   few list lemmas ([list_eqb], [fold_left], [firstn]/[skipn] over [++]) for the proof files.
   No axioms, no proofs of property relevance; only list/number utilities. *)
From Coq Require Export List ZArith NArith Arith Bool Lia.
Export ListNotations.

(* verdict codes returned by the per-property case checkers:
   (case index, code); code 0 is never emitted. *)
Definition verdict := (N * N)%type.

Fixpoint index_from {A} (i : N) (l : list A) : list (N * A) :=
  match l with
  | [] => []
  | x :: t => (i, x) :: index_from (N.succ i) t
  end.

Definition check_cases {A} (chk : A -> N) (cases : list A) : list verdict :=
  filter (fun p => negb (N.eqb (snd p) 0))
         (map (fun p => (fst p, chk (snd p))) (index_from 0%N cases)).

Fixpoint list_eqb {A} (eqb : A -> A -> bool) (l1 l2 : list A) : bool :=
  match l1, l2 with
  | [], [] => true
  | x :: t1, y :: t2 => eqb x y && list_eqb eqb t1 t2
  | _, _ => false
  end.

Lemma list_eqb_eq {A} (eqb : A -> A -> bool) :
  (forall x y, eqb x y = true <-> x = y) ->
  forall l1 l2, list_eqb eqb l1 l2 = true <-> l1 = l2.
Proof.
  intros H l1; induction l1 as [|x t IH]; intros [|y t2]; simpl; split; intro E;
    try reflexivity; try discriminate.
  - apply andb_true_iff in E as [E1 E2]. apply H in E1. apply IH in E2. congruence.
  - inversion E; subst. apply andb_true_iff; split; [apply H; reflexivity | apply IH; reflexivity].
Qed.

Lemma fold_left_inv {A B} (P : A -> Prop) (f : A -> B -> A) l :
  (forall a b, In b l -> P a -> P (f a b)) -> forall a, P a -> P (fold_left f l a).
Proof.
  induction l as [|b t IH]; simpl; intros Hf a Ha; [exact Ha|].
  apply IH; [intros a' b' Hb; apply Hf; right; exact Hb | apply Hf; [left; reflexivity | exact Ha]].
Qed.

Lemma firstn_len_app {A} (a b : list A) : firstn (length a) (a ++ b) = a.
Proof. rewrite firstn_app, firstn_all, Nat.sub_diag, firstn_O. apply app_nil_r. Qed.

Lemma skipn_len_app {A} (a b : list A) : skipn (length a) (a ++ b) = b.
Proof. rewrite skipn_app, skipn_all, Nat.sub_diag. reflexivity. Qed.

Lemma skipn_skipn {A} x y : forall l : list A, skipn x (skipn y l) = skipn (x + y) l.
Proof.
  induction y as [|y IH]; intros l.
  - rewrite Nat.add_0_r. reflexivity.
  - rewrite Nat.add_succ_r. destruct l as [|a t]; [rewrite !skipn_nil; reflexivity|]. apply IH.
Qed.

Lemma app_inv_length {A} (a a' b b' : list A) :
  length a = length a' -> a ++ b = a' ++ b' -> a = a' /\ b = b'.
Proof.
  revert a'. induction a as [|x a IH]; intros [|x' a'] L E; try discriminate; [auto|].
  injection E as -> E. injection L as L. destruct (IH a' L E) as [-> ->]. auto.
Qed.

Definition option_eqb {A} (eqb : A -> A -> bool) (a b : option A) : bool :=
  match a, b with
  | None, None => true
  | Some x, Some y => eqb x y
  | _, _ => false
  end.
