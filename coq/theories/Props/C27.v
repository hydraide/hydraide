(* Props/C27.v — Hydrex reverse index stays consistent with core data.
   The model (Sdk/Hydrex.v, fixd = true: the code after the fix: commit for C27) is tied to
   hydrex.go by the C27 correspondence check (real Hydrex on the real SDK over bufconn on the
   in-process gateway; every GetCoreData / GetIndexData answer compared).
   [ops] ranges over every sequence of Save/Destroy on any index names, domains, keys and values;
   each Save carries its own oracle (Go map iteration orders, clock), so the statements hold for
   every iteration order and every clock. *)
From HV Require Import Base.Prelude Sdk.Hydrex Sdk.HydrexProofs.
Local Open Scope N_scope.

(* Looking up a key returns exactly the domains whose last Save had the key and that were not
   destroyed since. *)
Theorem C27_index_is_last_saved : forall fixd ops i d k,
  In d (map fst (get_index (run fixd ops) i k)) <-> In k (map fst (last_saved ops i d)).
Proof.
  intros fixd ops i d k. unfold get_index.
  rewrite In_read_many, In_map_fst_amem, (inv_idx _ _ _ (inv_run fixd ops)). reflexivity.
Qed.
Print Assumptions C27_index_is_last_saved.

(* Reading a domain returns its last saved items: the same key -> value function. *)
Theorem C27_core_is_last_saved : forall ops i d k,
  alookup N.eqb k (core_values (run true ops) i d) = alookup N.eqb k (last_saved ops i d).
Proof.
  intros ops i d k. rewrite alookup_core_values. apply (inv_val _ _ _ (inv_run true ops) eq_refl).
Qed.
Print Assumptions C27_core_is_last_saved.

(* No key of a domain and no domain of a key is returned twice. *)
Theorem C27_no_row_twice : forall fixd ops i x,
  NoDup (map fst (get_core (run fixd ops) i x)) /\ NoDup (map fst (get_index (run fixd ops) i x)).
Proof. intros fixd ops i x. split; apply run_ok. Qed.
Print Assumptions C27_no_row_twice.

(* The code at the pinned commit never rewrote an existing key whose value changed: the value
   clause is false for it (witness: save k:=7, save k:=8), only the key set is right. *)
Theorem C27_core_is_last_saved_refuted_without_rewrite :
  exists ops i d k,
    alookup N.eqb k (core_values (run false ops) i d) <> alookup N.eqb k (last_saved ops i d).
Proof.
  exists [OSave 0 0 [(0, 7)] or0; OSave 0 0 [(0, 8)] or0], 0, 0, 0.
  vm_compute. discriminate.
Qed.
Print Assumptions C27_core_is_last_saved_refuted_without_rewrite.

(* What holds with and without the rewrite: a domain has exactly the keys of its last Save. *)
Theorem C27_core_keys_partial : forall fixd ops i d k,
  In k (map fst (get_core (run fixd ops) i d)) <-> In k (map fst (last_saved ops i d)).
Proof.
  intros fixd ops i d k. unfold get_core.
  rewrite In_read_many, In_map_fst_amem, (inv_core _ _ _ (inv_run fixd ops)). reflexivity.
Qed.
Print Assumptions C27_core_keys_partial.

(* Hence looking up a key returns exactly the domains whose current core data contains that key. *)
Theorem C27_index_consistent : forall fixd ops i d k,
  In d (map fst (get_index (run fixd ops) i k)) <-> In k (map fst (get_core (run fixd ops) i d)).
Proof. intros. rewrite C27_index_is_last_saved, C27_core_keys_partial. reflexivity. Qed.
Print Assumptions C27_index_consistent.
