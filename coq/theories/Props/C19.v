(* Props/C19.v — Subscribers get each committed change once, in order, with correct time.
   The model (Swamp/Events.v; fixed = true, mutex = true: the code after the two fix: commits for
   C19) is tied to swamp.go / hydra.go / gateway.go by the C19 correspondence check (real
   Gateway.SubscribeToEvents on fake streams, concurrent writers on the real engine). *)
From HV Require Import Base.Prelude Swamp.Events Swamp.EventsProofs.
Local Open Scope Z_scope.

(* For every history of subscribe / unsubscribe / unload (idle close, destroy) / write steps on a
   swamp and every subscriber c: what c receives is exactly the committed change log of its
   subscription windows - one message per write the engine reports as New / Modified / Deleted
   while c is subscribed, in order, none for other writes, none outside the window. *)
Theorem C19_one_event_per_change : forall fixed h c,
  recv_of c (hrun fixed h) = expected fixed c h.
Proof.
  intros fixed h c. unfold hrun, expected.
  apply (hi_recv _ _ _ (hinv_fold fixed c h h_init (false, []) (hinv_init c))).
Qed.
Print Assumptions C19_one_event_per_change.

(* With [C19_one_event_per_change]: no message for a write reported as "nothing changed" / "not found". *)
Theorem C19_no_event_without_change : forall fixed c h k st v now,
  is_change st = false ->
  expected fixed c (h ++ [HWrite k st v now]) = expected fixed c h.
Proof.
  intros fixed c h k st v now H. unfold expected. rewrite fold_left_app. simpl.
  rewrite H, andb_false_r. reflexivity.
Qed.
Print Assumptions C19_no_event_without_change.

(* With the reference status function a save of the current value is reported as no change (also,
   with the engine's sticky change flags, the first no-op save of a freshly loaded record). *)
Theorem C19_noop_save_status : forall v dirty,
  is_change (save_status false (Some v) dirty v) = false /\
  is_change (save_status true (Some v) false v) = false.
Proof. intros v dirty. unfold save_status. rewrite Z.eqb_refl. simpl. split; reflexivity. Qed.
Print Assumptions C19_noop_save_status.

(* The engine's change flags were never reset after a save at the pinned commit (C06): a save that
   changes nothing after an earlier creation/modification was reported Modified and emitted.
   Repaired by the C06 fix (ResetChangeFlags); kept as documentation. *)
Theorem C19_one_event_per_change_refuted_sticky :
  length (recv_of 0 (hrun true sticky_witness)) = 2%nat /\
  save_status false (Some 1) true 1 = StSame.
Proof. vm_compute. split; reflexivity. Qed.
Print Assumptions C19_one_event_per_change_refuted_sticky.

(* Any schedule of any number of writers (guard begin, commit, SendMsg start/end, guard release):
   the events of one key enter the subscriber's stream in commit order, none lost, none twice;
   at most the guard holder's event is still to be sent. *)
Theorem C19_per_key_order : forall mutex tr s k,
  drun mutex d_init tr = Some s ->
  of_key k (sent s) ++ pending_of s k = of_key k (clog s) /\ (length (pending_of s k) <= 1)%nat.
Proof.
  intros mutex tr s k E. split; [apply (di_order _ _ (reach_dinv mutex tr s E))|].
  unfold pending_of. destruct (slot s k) as [[w ph]|]; [destruct ph|]; simpl; lia.
Qed.
Print Assumptions C19_per_key_order.

(* The delivered timestamp denotes the commit instant (time.Now().UnixNano() of the emission). *)
Theorem C19_event_time : forall active k s v now e m,
  emit active k s v now = Some e -> deliver true e = Some m ->
  ts_nanos (m_secs m, m_nanos m) = now /\ 0 <= m_nanos m < giga.
Proof. exact event_time. Qed.
Print Assumptions C19_event_time.

(* The pinned conversion time.Unix(nanos, 0) does not. *)
Theorem C19_event_time_refuted_seconds_conversion :
  exists now e m, emit true 0 StNew 0 now = Some e /\ deliver false e = Some m /\
                  ts_nanos (m_secs m, m_nanos m) <> now.
Proof.
  exists 1. eexists. eexists. split; [reflexivity|]. split; [reflexivity|]. vm_compute. discriminate.
Qed.
Print Assumptions C19_event_time_refuted_seconds_conversion.

(* With the per-subscription mutex no two SendMsg calls on one stream are ever in progress. *)
Theorem C19_sends_not_concurrent : forall tr s,
  drun true d_init tr = Some s -> (nsending s <= 1)%nat /\ over s = false.
Proof. exact sends_not_concurrent. Qed.
Print Assumptions C19_sends_not_concurrent.

(* Without it (pinned code) two writers on different keys overlap. *)
Theorem C19_sends_not_concurrent_refuted_without_mutex :
  exists tr, option_map (fun s => (nsending s, over s)) (drun false d_init tr) = Some (2%nat, true).
Proof. exists two_writers. vm_compute. reflexivity. Qed.
Print Assumptions C19_sends_not_concurrent_refuted_without_mutex.

(* SubscribeToSwampEvents is atomic in the window machine of Swamp/Events.v ([HSub]).  At the pinned commit it
   was a Load followed by a Store on the sync.Map ([sstep_fn]): two clients that subscribe at the
   same time to a swamp nobody subscribed to before both succeed while only one is registered (the
   second Store of a fresh map overwrites the first) and the other client receives nothing.
   Repaired by the fix: commit that uses LoadOrStore (hydra.go); kept as the reason for it. *)
Theorem C19_window_refuted_for_concurrent_first_subscribers :
  exists tr, s_map (srun tr) = Some [2%N] /\
             tr = [SLoad 1; SLoad 2; SStore 1; SStore 2].
Proof. eexists. split; [|reflexivity]. vm_compute. reflexivity. Qed.
Print Assumptions C19_window_refuted_for_concurrent_first_subscribers.
