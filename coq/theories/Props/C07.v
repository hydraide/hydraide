(* Props/C07.v — Ordered index reads return the correctly sorted, ranged page.
   Property theorems; what they rest on is proved in Swamp/IndexProofs.v.
   The model (Swamp/Index.v, legacy = false) is tied to swamp.go / beacon.go / gateway.go by the
   C07 correspondence check (histories on the real engine; oracle valid_page + model replay). *)
From HV Require Import Base.Prelude Swamp.Index Swamp.IndexProofs.
From Coq Require Import Sorted Permutation.
Local Open Scope Z_scope.

(* findTimeRangeBounds (its four binary searches) on a slice sorted by the active attribute
   returns exactly the index interval of the entries with from <= ts < to, ascending and
   descending; it neither panics nor runs out of fuel. *)
Theorem C07_bounds_correct : forall asc a ft tu,
  Sorted (ordR asc) a ->
  exists s e, find_bounds asc a ft tu = Some (s, e) /\
    0 <= s /\ -1 <= e < Z.of_nat (length a) /\ s <= e + 1 /\
    filter (win ft tu) a = firstn (Z.to_nat (e + 1 - s)) (skipn (Z.to_nat s) a).
Proof. exact bounds_correct. Qed.
Print Assumptions C07_bounds_correct.

(* GetManyFromOrderPosition on a sorted slice returns the paged cut (drop From, take Limit,
   0 = no limit) of the entries inside the half-open window. *)
Theorem C07_page_correct_on_sorted : forall asc (at_ : skey -> skey) slice from lim ft tu,
  Sorted (fun k1 k2 => ord_leb asc (at_ k1) (at_ k2) = true) slice ->
  0 <= from -> 0 <= lim ->
  get_many asc slice (map at_ slice) from lim ft tu =
    Some (page_of (Z.to_nat from) (Z.to_nat lim) (filter (fun k => win ft tu (at_ k)) slice)).
Proof. exact page_correct_on_sorted. Qed.
Print Assumptions C07_page_correct_on_sorted.

(* Every operation keeps every initialised beacon a sorted permutation of the carriers. *)
Theorem C07_invariant : forall ops, Inv (run false init_st ops).
Proof. intros ops. apply inv_run, inv_init. Qed.
Print Assumptions C07_invariant.

(* The property: after every history (inserts after the first read, updates that move the sort
   attribute or add a timestamp, type changes, deletes, emptied swamps) every index read – any
   index type, order, offset, limit, window – answers, and its page is the paged cut of the
   records that carry the attribute and lie in [from,to), sorted by it, for some order of ties. *)
Theorem C07_reads_correct : forall ops i asc from lim ft tu,
  let s := run false init_st ops in
  exists page, snd (do_read false s i asc from lim ft tu) = Some page /\
               is_spec_page (recs s) i asc from lim ft tu page.
Proof. intros ops i asc from lim ft tu s. apply read_is_spec_page, inv_run, inv_init. Qed.
Print Assumptions C07_reads_correct.

(* The maintenance rules of the pinned commit (value index always re-sorted as int64; only the
   expiry index refreshed on update) do not have the property; kept as the reason for the fix:
   commits. Both witnesses were reproduced on the real pinned code by the harness. *)
Theorem C07_reads_correct_refuted_legacy_value_insert :
  exists ops i, legacy_read_valid ops i = false.
Proof. exists legacy_witness_a, (IValue 13%N). vm_compute. reflexivity. Qed.
Print Assumptions C07_reads_correct_refuted_legacy_value_insert.

Theorem C07_reads_correct_refuted_legacy_time_update :
  exists ops, legacy_read_valid ops IUpdated = false.
Proof. exists legacy_witness_b. vm_compute. reflexivity. Qed.
Print Assumptions C07_reads_correct_refuted_legacy_time_update.

(* The oracle of the correspondence check: valid_page (a bool) accepts exactly the pages that
   are spec pages for some order of the ties. *)
Theorem C07_valid_page_iff : forall rs i asc from lim ft tu page,
  NoDup (map r_key rs) ->
  (valid_page rs i asc from lim ft tu page = true <-> is_spec_page rs i asc from lim ft tu page).
Proof. intros rs i asc from lim ft tu page N. split; [apply valid_page_sound | apply valid_page_complete, N]. Qed.
Print Assumptions C07_valid_page_iff.
