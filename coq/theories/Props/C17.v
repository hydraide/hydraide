(* Props/C17.v — Lifecycle waits always terminate.
   Property theorems; what they rest on is proved in Conc/VigilProofs.v.
   The model (Conc/Vigil.v, locked = true: CeaseVigil decrements under the waiter's mutex and
   then broadcasts) is tied to vigil.go by the C17 correspondence check (forced schedules through
   the hook points vigil.wait.check / vigil.cease.gap, replayed through the model; stress). *)
From HV Require Import Base.Prelude Conc.Vigil Conc.VigilProofs.

(* Any number of waiters and operations, any schedule: there is no reachable state in which
   every started operation has ceased, some waiter has not returned and no waiter can move. *)
Theorem C17_no_stuck_waiter : forall nw nops sched s,
  run true (init nw nops) sched = Some s -> stuck s = false.
Proof. intros nw nops sched s R. apply no_stuck_inv. exact (reach_inv _ _ _ _ R). Qed.
Print Assumptions C17_no_stuck_waiter.

(* ... and in such a state no waiter sleeps on a ticket that no broadcast has reached. *)
Theorem C17_no_sleeper_without_wakeup : forall nw nops sched s,
  run true (init nw nops) sched = Some s -> quiescent s = true ->
  forall w, In w (ws s) -> w_asleep (shd s) w = false.
Proof. intros nw nops sched s R. apply quiescent_no_sleeper. exact (reach_inv _ _ _ _ R). Qed.
Print Assumptions C17_no_sleeper_without_wakeup.

(* Once every started operation has ceased: whatever the order, the waiters make at most
   [measure s] <= 7 * #waiters further steps, and there is a run in which all of them return
   (with C17_no_stuck_waiter: every maximal run ends with all waiters returned). *)
Theorem C17_wait_terminates : forall nw nops sched s,
  run true (init nw nops) sched = Some s -> quiescent s = true ->
  (forall wsched s', Forall is_TW wsched -> run true s wsched = Some s' ->
                     length wsched + measure s' <= measure s) /\
  (exists wsched s', Forall is_TW wsched /\ run true s wsched = Some s' /\
                     forallb w_done (ws s') = true /\ length wsched <= measure s) /\
  measure s <= 7 * length (ws s).
Proof.
  intros nw nops sched s R Q. pose proof (reach_inv _ _ _ _ R) as I. split; [|split].
  - intros wsched s' F E. apply (waiter_steps_bounded wsched s s' I Q F E).
  - apply (waiters_complete s I Q).
  - apply measure_le.
Qed.
Print Assumptions C17_wait_terminates.

(* The protocol of the pinned commit (decrement and broadcast without the mutex) loses the
   wake-up: one waiter, one operation, seven steps; kept as the reason for the fix: commit. *)
Theorem C17_no_stuck_waiter_refuted_without_lock :
  exists sched s, run false (init 1 1) sched = Some s /\ stuck s = true /\
                  quiescent s = true /\ ws s = [W3 0] /\ nnotify (shd s) = 0.
Proof. exists lost_wakeup_schedule. eexists. vm_compute. auto. Qed.
Print Assumptions C17_no_stuck_waiter_refuted_without_lock.

(* Auto-destroy path (DeleteTreasure / CloneAndDelete* inside a gateway handler), with the
   re-begin after Destroy: the counter equals the number of operations in flight, never < 0. *)
Theorem C17_counter_balance : forall kinds sched s,
  drun true (dinit kinds) sched = Some s ->
  dcnt s = Z.of_nat (d_count_inflight s) /\ (0 <= dcnt s)%Z.
Proof.
  intros kinds sched s E. pose proof (dinv_run _ _ _ (dinv_init kinds) E) as I.
  unfold d_count_inflight. fold (count d_inflight (dops s)). split; [exact I|rewrite I; apply Nat2Z.is_nonneg].
Qed.
Print Assumptions C17_counter_balance.

Theorem C17_counter_balance_refuted_without_rebalance :
  exists s, drun false (dinit [true]) [0; 0; 0; 0] = Some s /\ dcnt s = (-1)%Z.
Proof. eexists. vm_compute. auto. Qed.
Print Assumptions C17_counter_balance_refuted_without_rebalance.

(* Polling waits: GracefulStop's capped loop returns after at most cap+1 polls whatever
   CountActiveSwamps answers; WaitForUnlock returns at the first poll that sees no lock. *)
Theorem C17_polls_terminate_capped : forall fuel cap iter opens k,
  cap - iter < fuel ->
  exists n, poll_capped fuel cap iter opens k = Some n /\ n <= k + (cap - iter).
Proof. exact poll_capped_terminates. Qed.
Print Assumptions C17_polls_terminate_capped.

Theorem C17_polls_terminate_uncapped : forall (d fuel : nat) (locked : nat -> Z) (k : nat),
  (locked (k + d)%nat <= 0)%Z -> d < fuel ->
  exists n, poll_until fuel locked k = Some n /\ n <= k + d /\ (locked n <= 0)%Z.
Proof. exact poll_until_terminates. Qed.
Print Assumptions C17_polls_terminate_uncapped.
