(* Props/C09.v — Concurrent writes on a key are linearizable; no lost updates.
   Property theorems; what they rest on is proved in Conc/LinProofs.v.
   Model: Conc/Lin.v (write RPCs as thread programs over one record protected by the C15
   guard, both write modes) – tied to the code by the C09 correspondence check (certificate-
   checked linearizability of recorded request/response histories of the real engine). *)
From HV Require Import Base.Prelude Conc.Guard Conc.GuardProofs Conc.Lin Conc.LinProofs.
From Coq Require Import Sorted Permutation.

(* Guarded sections on one record are atomic, for every schedule and any number of threads
   in either write mode: the completed sections form a chain (each one read the state its
   predecessor wrote; the record holds the last write), ordered by their write steps; at
   most one thread is between its guard return and its write; and what such a thread has
   read is still the record's content. *)
Theorem guarded_section_atomic : forall s0 prog sched,
  let w := krun false (kinit s0 prog) sched in
  chain_ok kst op resp seq_step s0 (w_log w) /\
  last_state kst op resp s0 (w_log w) = w_val w /\
  StronglySorted lt (times kst op resp (w_log w)) /\
  (forall c1 c2 t1 t2, nth_error (w_thr w) c1 = Some t1 -> nth_error (w_thr w) c2 = Some t2 ->
     in_section kst resp (t_pc t1) = true -> in_section kst resp (t_pc t2) = true -> c1 = c2) /\
  (forall c t id r, nth_error (w_thr w) c = Some t -> t_pc t = PRead id r -> r = w_val w).
Proof. exact LinProofs.guarded_section_atomic. Qed.
Print Assumptions guarded_section_atomic.

(* Linearizability, both write modes (the second release of immediate-write mode is harmless
   with monotone guard ids): for every schedule the log of write steps is a sequential
   execution of the RPC meaning [seq_step] producing the final content and exactly the
   responses the clients received; it contains every request that passed its write step
   exactly once, every acknowledged request with its own operation and response; and it
   respects real time: if a was acknowledged before b was invoked, a's section precedes b's. *)
Theorem C09_linearizable : forall s0 prog sched,
  let w := krun false (kinit s0 prog) sched in
  sem_run seq_step s0 (map l_op (w_log w)) = (w_val w, map l_resp (w_log w)) /\
  NoDup (clients kst op resp (w_log w)) /\
  (forall c, In c (clients kst op resp (w_log w)) <->
             exists t, nth_error (w_thr w) c = Some t /\ past_write (t_pc t) = true) /\
  (forall c t rs, nth_error (w_thr w) c = Some t -> t_pc t = PDone rs ->
     exists e, In e (w_log w) /\ l_c e = c /\
               Some (l_op e) = option_map fst (nth_error prog c) /\ l_resp e = rs) /\
  StronglySorted lt (times kst op resp (w_log w)) /\
  (forall ea eb ta tb, In ea (w_log w) -> In eb (w_log w) ->
     nth_error (w_thr w) (l_c ea) = Some ta -> nth_error (w_thr w) (l_c eb) = Some tb ->
     is_done (t_pc ta) = true -> t_ret ta < t_inv tb -> l_time ea < l_time eb).
Proof. exact LinProofs.linearizable. Qed.
Print Assumptions C09_linearizable.

(* No lost update: any number of concurrent increments (any deltas, each request in either
   write mode), every schedule: once all are acknowledged the record holds the initial value
   plus the sum of the deltas in int64 arithmetic, each increment applied exactly once. *)
Theorem C09_no_lost_update : forall v0 (dm : list (Z * bool)) sched,
  wrap64 v0 = v0 ->
  let prog := map (fun p => (OInc (fst p), snd p)) dm in
  let w := krun false (kinit (Some (VI v0)) prog) sched in
  all_done w = true ->
  w_val w = Some (VI (wrap64 (v0 + zsum (map fst dm)))) /\ length (w_log w) = length dm.
Proof.
  intros v0 dm sched Hv prog w Hd.
  destruct (incs_add v0 prog (map fst dm) sched Hv) as [Hval Hlen];
    [unfold prog; rewrite !map_map; reflexivity|exact Hd|].
  rewrite map_length in Hlen. exact (conj Hval Hlen).
Qed.
Print Assumptions C09_no_lost_update.

(* In particular n acknowledged increments by one add n. *)
Theorem C09_n_increments_add_n : forall (modes : list bool) sched,
  let prog := map (fun b => (OInc 1%Z, b)) modes in
  let w := krun false (kinit (Some (VI 0%Z)) prog) sched in
  all_done w = true ->
  w_val w = Some (VI (wrap64 (Z.of_nat (length modes)))).
Proof.
  intros modes sched prog w Hd.
  destruct (C09_no_lost_update 0%Z (map (fun b => (1%Z, b)) modes) sched eq_refl) as [Hv _].
  - rewrite map_map. exact Hd.
  - rewrite !map_map in Hv. cbn [fst snd] in Hv. unfold w, prog.
    rewrite Hv, zsum_const. do 3 f_equal. lia.
Qed.
Print Assumptions C09_n_increments_add_n.

(* The id policy of the pinned commit (guard ids restart when the queue empties) loses an
   acknowledged increment in immediate-write mode; kept as the reason for the C15 fix. *)
Theorem C09_lost_update_refuted_with_id_reset :
  exists prog sched,
    Forall (fun p => fst p = OInc 1%Z) prog /\
    let w := krun true (kinit (Some (VI 0%Z)) prog) sched in
    all_done w = true /\ length prog = 3%nat /\ w_val w = Some (VI 2%Z) /\
    map l_resp (w_log w) = [RInc 1%Z; RInc 2%Z; RInc 2%Z].
Proof.
  exists lost_update_prog, lost_update_sched. split; [repeat constructor|].
  vm_compute. repeat split.
Qed.
Print Assumptions C09_lost_update_refuted_with_id_reset.

(* Consequences of the sequential meaning used as order-independent oracle clauses by the
   harness: a matching shift only hands out records satisfying its filter (and removes what
   it hands out). *)
Theorem C09_shiftm_only_matching : forall s thr s' v,
  seq_step s (OShiftM thr) = (s', RShiftM (Some v)) -> shiftm_match thr (Some v) = true /\ s = Some v /\ s' = None.
Proof.
  intros s thr s' v. simpl. destruct (shiftm_match thr s) eqn:E; intro H; inversion H; subst. auto.
Qed.
Print Assumptions C09_shiftm_only_matching.

(* No serial execution of the alphabet (the harness never stores a void value) ends with an
   indexed void record (final-state clause). *)
Theorem C09_final_state_never_void : forall l s, s <> Some VV -> Forall (fun o => o <> OSet VV) l ->
  fst (sem_run seq_step s l) <> Some VV.
Proof.
  induction l as [|o t IH]; simpl; intros s H Hf; [exact H|].
  inversion Hf; subst. apply IH; [apply seq_step_not_void; assumption|assumption].
Qed.
Print Assumptions C09_final_state_never_void.
