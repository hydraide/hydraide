(* Props/C06.v — Single-client API behaves like a simple key-value model.
   [Api.api_step cfg_now] is the faithful model of the repaired gateway handlers, tied to the code
   by the C06 correspondence check (exact replay of exhaustive short and random long histories);
   [Spec.spec_step] is the reference key-value model. *)
From HV Require Import Base.Prelude Swamp.Api Swamp.Spec Swamp.Abs Swamp.ApiProofs.
Local Open Scope Z_scope.

(* From every server state, reachable or not: no request hangs, panics or answers (nil, nil). *)
Theorem C06_every_request_returns : forall qs s, Forall proper (snd (api_run cfg_now s qs)).
Proof.
  induction qs as [|q t IH]; intros s; cbn [api_run]; [constructor|].
  pose proof (step_returns s q) as H. destruct (api_step cfg_now s q) as [s1 r].
  specialize (IH s1). destruct (api_run cfg_now s1 t) as [s2 rs]. constructor; assumption.
Qed.
Print Assumptions C06_every_request_returns.

(* For every history that stays inside the specified inputs (Spec.disc = 0 at every request along
   the reference run), all responses - statuses, returned values, counts, existence flags, error
   classes - equal those of the reference model, and so do the final contents.
   Missing hypothesis for the unrestricted statement: the five input classes of Spec.disc. *)
Theorem C06_refines_spec_partial : forall qs,
  disciplined sstate0 qs = true ->
  snd (api_run cfg_now srv0 qs) = snd (spec_run sstate0 qs) /\
  abs (fst (api_run cfg_now srv0 qs)) = fst (spec_run sstate0 qs).
Proof.
  intros qs D. change srv0 with (conc_srv sstate0). rewrite (run_conc qs sstate0 D).
  destruct (spec_run sstate0 qs) as [t rs]. split; [reflexivity | apply abs_conc_srv].
Qed.
Print Assumptions C06_refines_spec_partial.

(* from any well-formed server state, not only the empty one *)
Theorem C06_step_simulation : forall s q,
  wf s = true -> disc (abs s) q = 0 ->
  let '(s', r) := api_step cfg_now s q in
  spec_step (abs s) q = (abs s', r) /\ wf s' = true.
Proof.
  intros s q Hwf D. pose proof (step_conc (abs s) q D) as H. rewrite (conc_srv_abs s Hwf) in H. rewrite H.
  destruct (spec_step (abs s) q) as [t' r]. rewrite abs_conc_srv. split; [reflexivity|apply wf_conc_srv].
Qed.
Print Assumptions C06_step_simulation.

(* The per-request oracle of the correspondence check (ApiCheck.walk) calls a differing response a
   violation when the request is inside the specified inputs and consults no tainted record. In every
   well-formed state all requests are clean, and such a request is answered by the faithful model
   exactly as by the reference model - the oracle never blames the code for the model's own gap. *)
Theorem C06_oracle_clean_requests_agree : forall s q,
  wf s = true -> disc (abs s) q = 0 ->
  clean s q = true /\ snd (spec_step (abs s) q) = snd (api_step cfg_now s q).
Proof.
  intros s q Hwf D. split; [exact (wf_clean s q Hwf)|].
  pose proof (C06_step_simulation s q Hwf D) as H. destruct (api_step cfg_now s q) as [s' r].
  rewrite (proj1 H). reflexivity.
Qed.
Print Assumptions C06_oracle_clean_requests_agree.

(* The hypothesis is satisfiable by a non-trivial history: 13 requests of 8 of the 16 request kinds
   (Set, Get, GetAll, ShiftByKeys, Increment, Uint32SlicePush, Uint32SliceDelete, IsSwampExist). *)
Theorem C06_hypothesis_satisfiable :
  disciplined sstate0 ex_history = true /\ length ex_history = 13%nat.
Proof. split; [exact (proj1 ex_history_disciplined) | reflexivity]. Qed.
Print Assumptions C06_hypothesis_satisfiable.

(* The unrestricted refinement is false of the code that exists: one witness per excluded input
   class (each replayed on the real gateway by the harness and recorded as a finding). *)
Theorem C06_refines_spec_refuted :
  (first_class w_class1 = 1 /\ exists x y, differ_at (snd (api_run cfg_now srv0 w_class1)) (snd (spec_run sstate0 w_class1)) 2 x y) /\
  (first_class w_class2 = 2 /\ exists x y, differ_at (snd (api_run cfg_now srv0 w_class2)) (snd (spec_run sstate0 w_class2)) 2 x y) /\
  (first_class w_class3 = 3 /\ exists x y, differ_at (snd (api_run cfg_now srv0 w_class3)) (snd (spec_run sstate0 w_class3)) 2 x y) /\
  (first_class w_class4 = 4 /\ exists x y, differ_at (snd (api_run cfg_now srv0 w_class4)) (snd (spec_run sstate0 w_class4)) 2 x y) /\
  (first_class w_class5 = 5 /\ exists x y, differ_at (snd (api_run cfg_now srv0 w_class5)) (snd (spec_run sstate0 w_class5)) 1 x y).
Proof.
  (* [try] closes the five [first_class] equations, the rest are the five differences *)
  repeat split; try (vm_compute; reflexivity);
    (eexists; eexists; unfold differ_at; vm_compute; split; [reflexivity|split; [reflexivity|discriminate]]).
Qed.
Print Assumptions C06_refines_spec_refuted.

(* The pinned commit (change flags never reset, guard held across DeleteTreasure, Keys[0] of an empty
   list) broke the refinement inside the specified inputs (w_sticky) and the "every request returns"
   clause (w_hang, w_panic). *)
Theorem C06_refuted_at_pinned_commit :
  disciplined sstate0 w_sticky = true /\
  nth_error (snd (api_run cfg_pinned srv0 w_sticky)) 1 = Some (RSet [(None, [(1, StUpdated)])]) /\
  nth_error (snd (spec_run sstate0 w_sticky)) 1 = Some (RSet [(None, [(1, StNothing)])]) /\
  nth_error (snd (api_run cfg_pinned srv0 w_hang)) 1 = Some RHang /\
  nth_error (snd (api_run cfg_pinned srv0 w_panic)) 1 = Some RPanic.
Proof. vm_compute. repeat split; reflexivity. Qed.
Print Assumptions C06_refuted_at_pinned_commit.
