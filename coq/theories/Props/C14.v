(* Props/C14.v — Business lock: exclusive, FIFO, TTL-released, deadlock-free.
   Property theorems; what they rest on is proved in Conc/BLockProofs.v.
   The model (Conc/BLock.v) is tied to lock.go by the C14 correspondence check: traces of the
   hook points lock.enqueue / lock.remove (under q.mu) plus API-level events of 8-64 goroutines
   are replayed through the model, and the oracle is evaluated on the observations alone.
   All theorems hold for [prune = true] (the code after the fix: commit for C28) and for
   [prune = false] (the pinned commit). *)
From HV Require Import Base.Prelude Conc.BLock Conc.BLockProofs.
From Coq Require Import Sorted.

(* At most one caller per key is between the grant (select took the ready branch) and its
   removal; it is the head of the key's current queue. Any number of callers, any trace. *)
Theorem C14_mutex : forall prune n acts s, run prune (init n) acts = Some s ->
  forall p1 q1 e1 p2 q2 e2,
    nth_error (heap s) p1 = Some q1 -> nth_error (heap s) p2 = Some q2 ->
    holder_in s q1 e1 -> holder_in s q2 e2 ->
    p1 = p2 /\ e1 = e2 /\ cur s = Some p1 /\ exists tl, ents q1 = e1 :: tl.
Proof.
  intros prune n acts s R p1 q1 e1 p2 q2 e2 E1 E2 H1 H2. pose proof (reach_liveq _ _ _ _ R) as L.
  destruct (holder_is_head s p1 q1 e1 L E1 H1) as [C1 [t1 Q1]], (holder_is_head s p2 q2 e2 L E2 H2) as [C2 [t2 Q2]].
  assert (p2 = p1) by congruence; subst p2. assert (q2 = q1) by congruence; subst q2.
  assert (e2 = e1) by congruence; subst e2. eauto 6.
Qed.
Print Assumptions C14_mutex.

(* Queue non-empty => its head's ready channel is closed and the head is either an enabled
   waiter or the holder, whose removal by Unlock(its id) / its TTL watchdog is enabled. *)
Theorem C14_head_is_ready : forall prune n acts s, run prune (init n) acts = Some s ->
  forall p q e tl, nth_error (heap s) p = Some q -> ents q = e :: tl ->
    cur s = Some p /\ e_ready e = true /\
    ((nth_error (thr s) (e_tok e) = Some (L2 p) /\ exists s', step prune s (AStep (e_tok e)) = Some s') \/
     (nth_error (thr s) (e_tok e) = Some (H p) /\ exists s', step prune s (ARemove p (e_tok e)) = Some s')).
Proof. intros prune n acts s R. exact (lock_head_is_ready prune s (reach_liveq _ _ _ _ R)). Qed.
Print Assumptions C14_head_is_ready.

(* No waiter is left blocked: while a caller waits in the select, it is queued in the key's
   current queue whose head is enabled or holding (traces in which Unlock is called only with
   ids that Lock has returned, or with ids no caller has). *)
Theorem C14_no_stuck_waiter : forall prune n acts s,
  valid_trace prune (init n) acts = true -> run prune (init n) acts = Some s ->
  forall t p, nth_error (thr s) t = Some (L2 p) ->
  cur s = Some p /\
  exists q e tl, nth_error (heap s) p = Some q /\ ents q = e :: tl /\ e_ready e = true /\
    ((nth_error (thr s) (e_tok e) = Some (L2 p) /\ exists s', step prune s (AStep (e_tok e)) = Some s') \/
     (nth_error (thr s) (e_tok e) = Some (H p) /\ exists s', step prune s (ARemove p (e_tok e)) = Some s')).
Proof.
  intros prune n acts s V R t p T. destruct (reach_waiters_queued _ _ _ _ V R t p T) as [q [Eq Hin]].
  destruct (ents q) as [|e tl] eqn:Q; [destruct Hin|].
  destruct (lock_head_is_ready prune s (reach_liveq _ _ _ _ R) p q e tl Eq Q) as [C [Re D]]. eauto 8.
Qed.
Print Assumptions C14_no_stuck_waiter.

(* Grants happen in strictly increasing enqueue order, and every caller still waiting was
   enqueued after every caller granted so far (a cancelled caller is simply skipped). *)
Theorem C14_fifo : forall prune n acts s, run prune (init n) acts = Some s ->
  StronglySorted gt (glog s) /\
  forall p q e g, nth_error (heap s) p = Some q -> In e (ents q) ->
                  nth_error (thr s) (e_tok e) = Some (L2 p) -> In g (glog s) -> g < e_seq e.
Proof.
  intros prune n acts s R. pose proof (reach_inv _ _ _ _ R) as I. split; [apply (i_glog s I)|].
  intros p q e g E Hin T Hg. apply (i_wait s I p q e g E Hin); [rewrite T; reflexivity|assumption].
Qed.
Print Assumptions C14_fifo.

(* A removal with any id other than the holder's leaves the holder queued and holding; a
   removal of an id that is not queued changes nothing and reports not-found. *)
Theorem C14_release_only_by_owner_or_ttl : forall prune n acts s, run prune (init n) acts = Some s ->
  (forall p0 q0 e p id s', nth_error (heap s) p0 = Some q0 -> holder_in s q0 e -> e_tok e <> id ->
     step prune s (ARemove p id) = Some s' ->
     exists q1 e1, nth_error (heap s') p0 = Some q1 /\ holder_in s' q1 e1 /\ e_tok e1 = e_tok e) /\
  (forall p q id, nth_error (heap s) p = Some q -> has_tok id (ents q) = false ->
     do_remove prune s p id = Some (s, false)).
Proof.
  (* both clauses hold of every state, reachable or not *)
  intros prune n acts s _. split; [|exact (do_remove_miss prune s)].
  intros p0 q0 e p id s' E0 [Hin Hh] N St.
  pose proof (step_trans _ _ _ _ St) as T. inversion T as [| | | | | |p' id' q Eq]; subst.
  destruct (after_remove_keeps prune s p id q Eq p0 (e_tok e) N) as (q1 & K1 & K2); [exists q0; auto using in_map|].
  apply in_map_iff in K2. destruct K2 as (e1 & K3 & K2).
  exists q1, e1. unfold holder_in. rewrite after_remove_thr, K3. auto.
Qed.
Print Assumptions C14_release_only_by_owner_or_ttl.

(* Only callers inside Lock (select) or holding are ever queued: a stale id is never queued again. *)
Theorem C14_stale_id_never_requeued : forall prune n acts s, run prune (init n) acts = Some s ->
  forall p q e, nth_error (heap s) p = Some q -> In e (ents q) ->
    nth_error (thr s) (e_tok e) = Some (L2 p) \/ nth_error (thr s) (e_tok e) = Some (H p).
Proof. intros prune n acts s R. exact (i_thr s (reach_inv _ _ _ _ R)). Qed.
Print Assumptions C14_stale_id_never_requeued.

(* Gateway: the TTL handed to the lock is never below the floor (1000 ms in gateway.go). *)
Theorem C14_ttl_floor : forall floor ttl, (floor <= gw_ttl floor ttl)%Z.
Proof. intros floor ttl. unfold gw_ttl. destruct (ttl <=? floor)%Z eqn:E; lia. Qed.
Print Assumptions C14_ttl_floor.
