(* Props/C25.v — Disk write failures never corrupt durable data.
   Fault model (the fault oracle of Storage/C02Writer.v; Storage/C25Fault.v holds only the case
   checker run against the code, nothing of it is used here): any block write of any flush may
   stop after any strict prefix of its bytes (0 = full reject) and fail, the in-place header update may
   fail, the header update / fsync of a Sync or Close may fail, the truncation back after a
   failed block write may fail too (once or repeatedly); faults clear later; any number of
   faults per history. *)
From HV Require Import Base.Prelude Storage.C02Fs Storage.C02Writer Storage.C02Crash
  Storage.C02Proofs Storage.C02WriterProofs Storage.C02Examples Storage.C25Fault.
Local Open Scope N_scope.

(* After every single file operation of every history with arbitrary write faults, the file is
   loadable and contains every block that was complete before, in order. (The reader errs only while the header area of
   a brand-new file is still being written and no block ever existed.) *)
Theorem C25_stored_data_stays_readable : forall nlen f0 h p q,
  start_ok nlen f0 -> Forall api_ok h ->
  oplog nlen f0 w_closed h = p ++ q ->
  let B0 := loaded_blocks true (vol f0) in
  let B := loaded_blocks true (vol (fs_run f0 p)) in
  prefix B0 B /\
  (recover true (vol (fs_run f0 p)) = Some B \/
   (recover true (vol (fs_run f0 p)) = None /\ B0 = [] /\ B = [])).
Proof.
  intros nlen f0 h p q H0 Hh Hlog. exact (stays_readable _ _ _ _ (oplog_prefix_ok _ _ _ _ _ H0 Hh Hlog)).
Qed.
Print Assumptions C25_stored_data_stays_readable.

(* Whatever faults occurred, as long as no Close failed: the blocks in the file followed by
   the writer's buffer are exactly the submitted entries in order – entries of a failed block
   write stay buffered, nothing written later is hidden. *)
Theorem C25_file_plus_buffer_is_submitted : forall nlen f0 h f1 w1 ops1 oks1,
  start_ok nlen f0 -> Forall api_ok h ->
  w_run nlen f0 w_closed h = (f1, w1, ops1, oks1) -> no_failed_close h oks1 = true ->
  elog_of (loaded_blocks true (vol f1)) ++ w_buf w1 =
    elog_of (loaded_blocks true (vol f0)) ++ submitted false h.
Proof.
  intros nlen f0 h f1 w1 ops1 oks1 H0 Hh Hrun. exact (proj2 (proj2 (run_from_start _ _ _ _ _ _ _ H0 Hh Hrun))).
Qed.
Print Assumptions C25_file_plus_buffer_is_submitted.

(* Once the fault has cleared (a Sync or Close succeeds) everything submitted – before, during
   and after the faults – is stored, durable and recoverable. *)
Theorem C25_later_writes_recoverable : forall nlen f0 h f1 w1 ops1 oks1 a w2 ops2,
  start_ok nlen f0 -> Forall api_ok h -> api_ok a -> is_barrier a = true ->
  w_run nlen f0 w_closed h = (f1, w1, ops1, oks1) -> no_failed_close h oks1 = true ->
  w_open w1 = true -> w_step nlen f1 w1 a = (w2, ops2, true) ->
  let f2 := fs_run f1 ops2 in
  elog_of (loaded_blocks true (dur f2)) =
    elog_of (loaded_blocks true (vol f0)) ++ submitted false h /\
  loaded_blocks true (vol f2) = loaded_blocks true (dur f2) /\
  w_buf w2 = [].
Proof. exact synced_entries_durable. Qed.
Print Assumptions C25_later_writes_recoverable.

(* Non-vacuity: [ex_fault_h], with a block write that stops after 20 of 23 bytes, satisfies the
   hypotheses; on such a history (here with a third payload of 9 instead of 4 bytes) the repaired
   writer stores all three records. *)
Theorem C25_example_short_write_repaired :
  Forall api_ok ex_fault_h /\
  let '(f2, _, _, oks) := w_run 0 fs_empty w_closed
        [AOpen; AWrite (1, Some 10) (Some (5, FFok)); AWrite (2, Some 20) (Some (7, FFshort 20));
         AWrite (3, Some 30) (Some (9, FFok)); AClose 1 FFok true] in
  state_of (loaded_blocks true (dur f2)) = [(1, 10); (2, 20); (3, 30)] /\
  oks = [true; true; false; true; true].
Proof. split; [exact ex_fault_hyps_ok | exact ex_fault_repaired]. Qed.
Print Assumptions C25_example_short_write_repaired.

(* Non-vacuity for the double fault "block write stops short AND the truncation back fails,
   the next flush still cannot truncate": once the fault clears all four records are stored. *)
Theorem C25_example_failed_truncation_repaired :
  Forall api_ok ex_dirty_h /\
  let '(f2, _, ops, oks) := w_run 0 fs_empty w_closed ex_dirty_h in
  state_of (loaded_blocks true (dur f2)) = [(1, 10); (2, 20); (3, 30); (4, 40)] /\
  oks = [true; true; false; false; true; true] /\
  canon_log ops = [(1, 0); (2, 64); (2, 16); (2, 5); (3, 64); (2, 16); (2, 4);
                   (4, 85); (2, 16); (2, 11); (3, 64); (3, 64); (5, 0); (6, 0)].
Proof. split; [exact ex_dirty_hyps_ok | exact ex_dirty_tail_repaired]. Qed.
Print Assumptions C25_example_failed_truncation_repaired.

(* The writer before the repair: the partial block stays
   in the middle of the file, nothing behind it can be read and the failed block's entry is
   dropped. *)
Theorem C25_refuted_before_repair :
  let '(f2, _, _, _) := w_run_gen false 0 fs_empty w_closed ex_fault_h in
  state_of (loaded_blocks true (vol f2)) = [] /\
  recover false (vol f2) = None /\
  state_of_entries [] (submitted false ex_fault_h) = [(1, 10); (2, 20); (3, 30)].
Proof. vm_compute. repeat split; reflexivity. Qed.
Print Assumptions C25_refuted_before_repair.
