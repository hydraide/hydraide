(* Props/C24.v — Compression round-trips and never hides corruption.
   Property theorems; what they rest on is proved in Compress/WrapperProofs.v and
   Compress/SnappyProofs.v.  The wrapper model ([Compress/Wrapper.v]) is parametric in the four
   third-party codecs (M5: [enc]/[dec] are universally quantified functions); it is tied to
   app/core/compressor/compressor.go by the C24 correspondence check, which also feeds every
   snappy block (valid and damaged) to the Gallina decoder of [Compress/Snappy.v]. *)
From HV Require Import Base.Prelude Compress.Snappy Compress.Wrapper
  Compress.WrapperProofs Compress.SnappyProofs.
Local Open Scope N_scope.

(* The wrapper adds nothing and loses nothing: if every codec inverts itself, so does the
   Compressor, for every supported type and every input (also for the pinned commit). *)
Theorem C24_roundtrip : forall (enc dec : alg -> bytes -> res),
  (forall a x, exists y, enc a x = Ok y /\ dec a y = Ok x) ->
  forall bug t a x, alg_of_type t = Some a ->
  exists y, compress enc t x = Ok y /\ decompress dec bug t y = Ok x.
Proof.
  intros enc dec Hrt bug t a x Ht. destruct (Hrt a x) as [y [He Hd]].
  exists y. unfold compress. rewrite Ht. split; [exact He|].
  rewrite (decompress_codec dec bug t a y Ht); [exact Hd|]. rewrite Hd. right. right. discriminate.
Qed.
Print Assumptions C24_roundtrip.

(* A codec error is never swallowed (current code, after the fix). *)
Theorem C24_errors_propagate : forall (dec : alg -> bytes -> res) t a y,
  alg_of_type t = Some a -> dec a y = Err -> decompress dec false t y = Err.
Proof. intros dec t a y Ht Hd. rewrite (decompress_codec dec false t a y Ht); auto. Qed.
Print Assumptions C24_errors_propagate.

(* The pinned commit returned the named result err (nil) from decompressGzip: (nil, nil). *)
Theorem C24_errors_propagate_refuted_with_named_err :
  exists (dec : alg -> bytes -> res) y,
    dec Gzip y = Err /\ decompress dec true 1%Z y = Ok [].
Proof. exists (fun _ _ => Err), [1;2;3]. split; reflexivity. Qed.
Print Assumptions C24_errors_propagate_refuted_with_named_err.

(* ... while LZ4, Snappy and Zstd errors were propagated even then. *)
Theorem C24_errors_propagate_partial : forall (dec : alg -> bytes -> res) bug t a y,
  alg_of_type t = Some a -> a <> Gzip -> dec a y = Err -> decompress dec bug t y = Err.
Proof. intros dec bug t a y Ht Hna Hd. rewrite (decompress_codec dec bug t a y Ht); auto. Qed.
Print Assumptions C24_errors_propagate_partial.

(* Data returned without error is exactly what the codec produced. *)
Theorem C24_ok_passthrough : forall (dec : alg -> bytes -> res) t y o,
  decompress dec false t y = Ok o -> exists a, alg_of_type t = Some a /\ dec a y = Ok o.
Proof.
  intros dec t y o H. destruct (alg_of_type t) as [a|] eqn:Ht.
  - exists a. rewrite (decompress_codec dec false t a y Ht) in H; auto.
  - unfold decompress in H. rewrite Ht in H. discriminate.
Qed.
Print Assumptions C24_ok_passthrough.

Theorem C24_unknown_type_rejected : forall (enc dec : alg -> bytes -> res) bug t x,
  alg_of_type t = None -> compress enc t x = Err /\ decompress dec bug t x = Err.
Proof. intros enc dec bug t x Ht. unfold compress, decompress. rewrite Ht. split; reflexivity. Qed.
Print Assumptions C24_unknown_type_rejected.

(* Damaged data gives an error or the original - provided the codec's format detects damage;
   the wrapper preserves that. *)
Theorem C24_no_silent_difference : forall (enc dec : alg -> bytes -> res) t a x y y',
  alg_of_type t = Some a -> detects enc dec a ->
  compress enc t x = Ok y -> y' <> y ->
  decompress dec false t y' = Err \/ decompress dec false t y' = Ok x.
Proof.
  intros enc dec t a x y y' Ht Hdet Hc Hne. unfold compress in Hc. rewrite Ht in Hc.
  rewrite (decompress_codec dec false t a y' Ht) by auto. exact (Hdet x y y' Hc Hne).
Qed.
Print Assumptions C24_no_silent_difference.

Theorem C24_no_silent_difference_refuted_with_named_err :
  exists (enc dec : alg -> bytes -> res) x y y',
    detects enc dec Gzip /\ compress enc 1%Z x = Ok y /\ y' <> y /\ x <> [] /\
    decompress dec true 1%Z y' = Ok [].
Proof.
  exists one_enc, one_dec, [42], [7], [8].
  split; [apply one_detects|]. repeat split; try discriminate; reflexivity.
Qed.
Print Assumptions C24_no_silent_difference_refuted_with_named_err.

(* Raw Snappy: the block decoder inverts the literal-only encoder ... *)
Theorem C24_snappy_decoder_roundtrip : forall x : bytes,
  (length x <= 60)%nat -> snappy_decode (enc_lit x) = Some x.
Proof. exact snappy_lit_roundtrip. Qed.
Print Assumptions C24_snappy_decoder_roundtrip.

(* ... hence a flipped literal byte decodes, without error, to different data ... *)
Theorem C24_snappy_literal_flip_undetected : forall (x : bytes) i b,
  (length x <= 60)%nat -> (i < length x)%nat -> nth i x 0 <> b ->
  let y := enc_lit x in
  let y' := set_nth (2 + i) b y in
  y' <> y /\ snappy_decode y' = Some (set_nth i b x) /\ set_nth i b x <> x.
Proof. exact snappy_literal_flip_undetected. Qed.
Print Assumptions C24_snappy_literal_flip_undetected.

(* ... and the hypothesis [detects] of C24_no_silent_difference is false for Snappy: the
   "never hides corruption" half of the property is refuted for that format (known finding
   snappy_literal_byte_flip; the V2 storage engine adds a CRC per block on top). *)
Theorem C24_no_silent_difference_refuted_for_snappy :
  forall (enc dec : alg -> bytes -> res) (x : bytes),
  x <> [] -> (length x <= 60)%nat ->
  enc Snappy x = Ok (enc_lit x) ->
  (forall y, dec Snappy y = res_of_opt (snappy_decode y)) ->
  ~ detects enc dec Snappy.
Proof.
  intros enc dec x Hne Hlen Henc Hdec Hdet.
  assert (Hi : (0 < length x)%nat) by (destruct x; [contradiction | simpl; lia]).
  assert (Hb : nth 0 x 0 <> N.succ (nth 0 x 0)) by lia.
  destruct (snappy_literal_flip_undetected x 0 (N.succ (nth 0 x 0)) Hlen Hi Hb) as [Hy [Hd Hx]].
  destruct (Hdet x (enc_lit x) _ Henc Hy) as [He|Ho]; rewrite Hdec, Hd in *;
    [discriminate | injection Ho as Ho; exact (Hx Ho)].
Qed.
Print Assumptions C24_no_silent_difference_refuted_for_snappy.
