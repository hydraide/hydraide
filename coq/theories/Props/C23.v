(* Props/C23.v — V1 to V2 migration preserves exactly the loadable data.
   Property theorems; what they rest on is proved in Storage/C23MigrateProofs.v, model in Storage/C23Migrate.v
   (V1 folder = chunk files of segments + meta name; migrator = load/dedupe, write, verify, delete).
   The model is tied to migrator.go and the V1 chronicler by harness/cmd/c23. *)
From HV Require Import Base.Prelude Storage.C03Compact Storage.C03CompactProofs
                       Storage.C23Migrate Storage.C23MigrateProofs.
Local Open Scope N_scope.

(* For every folder the migrator accepts (hex-named readable chunk files, decodable segments) whose
   chunk files agree on shared keys, every flag combination without dry-run, every map iteration
   order of the legacy Load ([order]) and of the migrator ([perm]): the migrated file loads to
   exactly the records - keys and values - the legacy engine loads, and stores the meta name;
   the V1 folder is deleted iff delete-old was requested. *)
Theorem C23_migration_preserves : forall cfg perm folder order,
  let files := v1_files folder in
  clean files -> consistent files ->
  (forall f, In f order <-> In f files) ->
  dry_run cfg = false ->
  v1_load files <> [] ->
  covers perm (v1_load files) ->
  exists hydf st,
    migrate cfg perm WNoFault folder PreNone =
      (MS (if delete_old cfg then None else Some folder) (PreFile hydf), PSuccess) /\
    load_index hydf = Some st /\
    (forall k, ilookup k (fst st) = ilookup k (v1_load order)) /\
    snd st = v1_meta folder.
Proof.
  intros cfg perm folder order files Hcl Hco Hm Hdry Hne Hcov.
  destruct (compact_preserves_index _ (v1_meta folder) perm Hcov) as [Hl Hn].
  do 2 eexists. split; [apply migrate_fresh; auto|]. split; [reflexivity|]. split; [|exact Hn].
  intros k. rewrite Hl. symmetry. apply v1_load_order; assumption.
Qed.
Print Assumptions C23_migration_preserves.

(* Folders written by the V1 engine: every write/modify/delete history with any chunk roll-over
   decisions keeps each key in at most one chunk file (the swamp submits a key as new only when
   no chunk holds it). *)
Theorem C23_v1_write_inv : forall ops cs cs',
  NoDup (all_keys cs) -> v1_run cs ops = Some cs' -> NoDup (all_keys cs').
Proof. exact v1_write_inv. Qed.
Print Assumptions C23_v1_write_inv.

(* ... hence every folder produced by a V1 history migrates exactly, for every chunk size. *)
Theorem C23_migration_preserves_v1_histories : forall ops cs cfg perm meta order,
  v1_run [] ops = Some cs ->
  let folder := V1 (map chunk_file cs) meta in
  (forall f, In f order <-> In f (v1_files folder)) ->
  dry_run cfg = false -> v1_load (v1_files folder) <> [] -> covers perm (v1_load (v1_files folder)) ->
  exists hydf st,
    migrate cfg perm WNoFault folder PreNone = (MS (if delete_old cfg then None else Some folder) (PreFile hydf), PSuccess) /\
    load_index hydf = Some st /\
    (forall k, ilookup k (fst st) = ilookup k (v1_load order)) /\ snd st = meta.
Proof.
  intros ops cs cfg perm meta order Hr folder. apply C23_migration_preserves;
    [apply chunk_folder_clean | apply nodup_folder_consistent, (v1_write_inv ops [] cs (NoDup_nil _) Hr)].
Qed.
Print Assumptions C23_migration_preserves_v1_histories.

(* For every configuration, every folder (readable or not), every pre-existing .hyd and every write
   fault: the V1 folder is either untouched or deleted; it is deleted only with delete-old, no dry-run
   and a successful (or empty-skipped) migration; success implies the write did not fail and, with
   verify, that verification passed; a failed verification removes the new file; load failure,
   dry-run and empty-skip leave the target path untouched. *)
Theorem C23_failure_leaves_v1_intact : forall cfg perm wf folder pre st ph,
  migrate cfg perm wf folder pre = (st, ph) ->
  (m_v1 st = Some folder \/ m_v1 st = None) /\
  (m_v1 st = None -> delete_old cfg = true /\ dry_run cfg = false /\ (ph = PSuccess \/ ph = PSkippedEmpty)) /\
  (ph = PSuccess -> wf = WNoFault /\
     (verify cfg = true -> exists ix, mig_load (v1_files folder) = MLOk ix /\ verify_ok (m_hyd st) ix = true)) /\
  (ph = PFailVerify -> m_hyd st = PreNone) /\
  (ph = PFailLoad \/ ph = PDryRun \/ ph = PSkippedEmpty -> m_hyd st = pre).
Proof. exact failure_leaves_v1_intact. Qed.
Print Assumptions C23_failure_leaves_v1_intact.

(* informational: the tool's own verification only checks key presence *)
Theorem C23_verify_is_weak :
  exists hyd expected k, verify_ok (PreFile hyd) expected = true /\
    ilookup k expected = Some 10 /\
    option_map (fun st => ilookup k (fst st)) (load_index hyd) = Some (Some 99).
Proof. exists (FGood 7 [E OSet 1 99]), [(1, 10)], 1. vm_compute. repeat split; reflexivity. Qed.
Print Assumptions C23_verify_is_weak.

(* The hypothesis "no .hyd at the target path" of C23_migration_preserves is necessary: the writer
   appends to an existing file with a valid header (known finding preexisting_hyd_appended). With the
   repaired writer a torn final block of that file is cut off first, so the old file's complete
   blocks survive; a file shorter than its header is harmless (next theorem). *)
Theorem C23_preexisting_hyd_refuted :
  exists pre st,
    migrate (CFG false true true) [1; 3] WNoFault ex_folder (PreFile pre) = (st, PSuccess) /\
    m_v1 st = None /\
    ilookup 2 (v1_load (v1_files ex_folder)) = None /\
    option_map (fun s => (ilookup 2 (fst s), snd s)) (match hyd_img (m_hyd st) with Some f => load_index f | None => None end)
      = Some (Some 20, 9).
Proof.
  exists (FGood 9 [E OSet 2 20]). eexists. split; [vm_compute; reflexivity|]. vm_compute. repeat split; reflexivity.
Qed.
Print Assumptions C23_preexisting_hyd_refuted.

(* a target shorter than its header (interrupted creation) behaves exactly like no target: the
   writer creates it again; on the paths that do not write it is left alone *)
Theorem C23_short_target_harmless : forall cfg perm wf folder,
  migrate cfg perm wf folder PreShort = migrate cfg perm wf folder PreNone \/
  exists ph, (ph = PFailLoad \/ ph = PDryRun \/ ph = PSkippedEmpty) /\
             snd (migrate cfg perm wf folder PreShort) = ph /\ snd (migrate cfg perm wf folder PreNone) = ph /\
             m_v1 (fst (migrate cfg perm wf folder PreShort)) = m_v1 (fst (migrate cfg perm wf folder PreNone)) /\
             m_hyd (fst (migrate cfg perm wf folder PreShort)) = PreShort.
Proof.
  intros [dr vf dl] perm wf folder. unfold migrate. simpl.
  destruct (mig_load (v1_files folder)) as [|[|p0 ix0]].
  - right. exists PFailLoad. simpl. auto 10.
  - right. exists PSkippedEmpty. simpl. auto 10.
  - destruct dr; [right; exists PDryRun; simpl; auto 10 | left; reflexivity].
Qed.
Print Assumptions C23_short_target_harmless.

(* same finding, second shape: a target with a complete but corrupt block stays unreadable after the
   append; without --verify the run succeeds and --delete-old removes the V1 data *)
Theorem C23_corrupt_target_refuted :
  exists st, migrate (CFG false false true) [1; 3] WNoFault ex_folder (PreFile (FTorn 9 [])) = (st, PSuccess) /\
             m_v1 st = None /\ (match hyd_img (m_hyd st) with Some f => load_index f | None => None end) = None.
Proof. eexists. split; [vm_compute; reflexivity|]. vm_compute. split; reflexivity. Qed.
Print Assumptions C23_corrupt_target_refuted.

(* informational: with the same key in two chunk files the legacy Load itself is order dependent *)
Theorem C23_dup_refuted :
  exists f g, ilookup 1 (v1_load [f; g]) <> ilookup 1 (v1_load [g; f]).
Proof. exists (VF true (VSegs [SOk 1 10])), (VF true (VSegs [SOk 1 11])). vm_compute. discriminate. Qed.
Print Assumptions C23_dup_refuted.
