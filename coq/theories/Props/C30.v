(* Props/C30.v — Expiry semantics are consistent across every read and claim path.
   Spec: expired now e := e <> 0 /\ e < now.  The model (Record/Expiry.v) transcribes every
   expiry-aware site of treasure.go, beacon.go, swamp.go, swamp_patch(_expired).go,
   filter_native.go, gateway*.go; it is tied to the code by the C30 correspondence check. *)
From HV Require Import Base.Prelude Record.Expiry Record.ExpiryProofs.
Local Open Scope Z_scope.

(* For every e and now (all of Z, so zero and pre-epoch values included): IsExpired, the tests
   of ShiftExpired / SelectExpiredForPatch(WithCap), the filter "ExpiredAt < now" and the
   expiry-index window [.., now) are the spec; index membership (4 maintenance sites),
   IS_EMPTY / IS_NOT_EMPTY and the three wire projections are "e <> 0"; every comparison
   filter is "e <> 0 and the comparison". *)
Theorem C30_predicates_agree : forall now e,
  (site_is_expired now e = expiredb now e /\
   site_shift_expired now e = expiredb now e /\
   site_select_for_patch now e = expiredb now e /\
   site_select_for_patch_cap now e = expiredb now e /\
   site_filter_cmp OpLt now e = expiredb now e /\
   site_index_window None (Some now) e = expiredb now e) /\
  (site_index_add e = has_expiry e /\
   site_index_build e = has_expiry e /\
   site_index_save e = has_expiry e /\
   site_index_reindex e = has_expiry e /\
   site_filter_is_not_empty e = has_expiry e /\
   site_filter_is_empty e = negb (has_expiry e) /\
   site_wire_treasure e = has_expiry e /\
   site_wire_increment e = has_expiry e /\
   site_wire_patch_expired e = has_expiry e) /\
  (forall op ref, site_filter_cmp op ref e = has_expiry e && compare_ordered op e ref).
Proof.
  intros now e.
  (* the sites not unfolded here are the spec word for word *)
  unfold site_is_expired, site_filter_cmp, site_index_window, site_index_build, in_window,
    site_index_reindex, site_filter_is_empty, site_wire_patch_expired, expiredb, has_expiry.
  repeat split; try reflexivity; intros; destruct (e =? 0); reflexivity.
Qed.
Print Assumptions C30_predicates_agree.

Theorem C30_spec_decidable : forall now e,
  (expiredb now e = true <-> expired now e) /\ (has_expiry e = true <-> e <> 0).
Proof. intros now e. split; [apply expiredb_spec | apply has_expiry_spec]. Qed.
Print Assumptions C30_spec_decidable.

(* The wire projection of the pinned commit (ExpiredAt reported only when > 0) broke the
   agreement: a pre-epoch expiry is expired, indexed and claimable but was shown as "never
   expires". *)
Theorem C30_wire_refuted_before_fix :
  exists now e, expired now e /\ site_shift_expired now e = true /\ site_index_build e = true /\
                site_wire_treasure_old e = false.
Proof. exists 0, (-1). repeat split. discriminate. Qed.
Print Assumptions C30_wire_refuted_before_fix.

(* ... it agreed with the other sites on e >= 0. *)
Theorem C30_wire_before_fix_partial : forall e, 0 <= e -> site_wire_treasure_old e = has_expiry e.
Proof. intros [|p|p] H; try reflexivity. destruct H. reflexivity. Qed.
Print Assumptions C30_wire_before_fix_partial.

(* A record without expiry never expires on any path. *)
Theorem C30_never_expires : forall now,
  site_is_expired now 0 = false /\ site_shift_expired now 0 = false /\
  site_select_for_patch now 0 = false /\ site_select_for_patch_cap now 0 = false /\
  site_index_add 0 = false /\ site_index_build 0 = false /\ site_index_save 0 = false /\
  site_index_reindex 0 = false /\ site_filter_is_empty 0 = true /\ site_wire_treasure 0 = false /\
  (forall op ref, site_filter_cmp op ref 0 = false) /\
  (forall from to, site_index_window from to 0 = false).
Proof.
  (* C30_predicates_agree at e := 0 ([assumption] sees through [expiredb now 0], [has_expiry 0]); the
     window with arbitrary bounds is not among its clauses and computes ([split] closes it) *)
  intros now.
  destruct (C30_predicates_agree now 0) as [(E1 & E2 & E3 & E4 & _) [(A1 & A2 & A3 & A4 & _ & A6 & A7 & _) Hc]].
  repeat split; assumption.
Qed.
Print Assumptions C30_never_expires.

(* After every history of Set / Increment-metadata / Patch-meta (set, slide, clear) / Delete /
   index reads / reloads / ShiftExpired / ShiftMatching-window / PatchExpired, with the sticky
   change flags taking any values: a built expiry index holds exactly the keys whose record has
   a non-zero expiry. *)
Theorem C30_index_membership : forall sat h l k,
  idx (run sat init h) = Some l ->
  (In k l <-> exists r, lookup k (recs (run sat init h)) = Some r /\ r_exp r <> 0).
Proof. exact index_membership. Qed.
Print Assumptions C30_index_membership.

(* In every reachable state the three claim paths return exactly the expired records. *)
Theorem C30_claims_exact : forall sat h now k o,
  o = OShiftExpired now \/ o = OShiftWindow now \/ (exists c t f, o = OPatchExpired now c t f) ->
  (In k (claim_result (run sat init h) o) <->
   exists r, lookup k (recs (run sat init h)) = Some r /\ expired now (r_exp r)).
Proof.
  (* each claim reads the built index with a test that is [e <? now] on e <> 0 *)
  intros sat h now k o Ho. pose proof (run_inv sat h init init_inv) as H.
  destruct Ho as [->|[->|[c [t [f ->]]]]]; cbn [claim_result]; apply claimed_keys_expired; try exact H;
    intros e He%Z.eqb_neq.
  - (* ShiftExpired *) unfold site_shift_expired. rewrite He. reflexivity.
  - (* ShiftMatching, window [.., now) *) reflexivity.
  - (* PatchExpired *) unfold site_select_for_patch_cap. rewrite He. reflexivity.
Qed.
Print Assumptions C30_claims_exact.

(* ... and reads through the expiry index (any window) exactly the records with an expiry in it. *)
Theorem C30_index_read_exact : forall sat h from to k,
  In k (claimed_keys (in_window from to) (build_index (run sat init h))) <->
  exists r, lookup k (recs (run sat init h)) = Some r /\ r_exp r <> 0 /\ in_window from to (r_exp r) = true.
Proof. intros sat h from to k. apply claimed_keys_exact, run_inv, init_inv. Qed.
Print Assumptions C30_index_read_exact.

(* Before and after a reload: no record and no claim changes. *)
Theorem C30_reload_transparent : forall sat h,
  recs (run sat init (h ++ [OReload])) = recs (run sat init h) /\
  forall now k o,
    o = OShiftExpired now \/ o = OShiftWindow now \/ (exists c t f, o = OPatchExpired now c t f) ->
    (In k (claim_result (run sat init (h ++ [OReload])) o) <-> In k (claim_result (run sat init h) o)).
Proof.
  intros sat h. assert (E : recs (run sat init (h ++ [OReload])) = recs (run sat init h)).
  { unfold run. rewrite fold_left_app. reflexivity. }
  split; [exact E|]. intros now k o Ho. rewrite !(C30_claims_exact _ _ _ _ _ Ho), E. reflexivity.
Qed.
Print Assumptions C30_reload_transparent.

(* Patch meta: clear wins over set and yields "never expires"; no field: untouched; an instant that
   fits int64 ns is stored exactly; any other non-epoch instant is stored as a real expiry on the
   same side of every now (current code, saturating). *)
Theorem C30_clear_slide : forall sat t e,
  patch_path sat true t e = (0, true) /\
  patch_path sat false None e = (e, false) /\
  (forall s n, t = Some (s, n) -> is_zero_time s n = false ->
     min_i64 <= instant s n <= max_i64 ->
     patch_path sat false t e = (instant s n, true)) /\
  (forall s n, t = Some (s, n) -> is_zero_time s n = false -> instant s n <> 0 ->
     forall now, min_i64 < now <= max_i64 ->
     let e' := fst (patch_path true false t e) in
     e' <> 0 /\ (expired now e' <-> instant s n < now)).
Proof.
  intros sat t e. split; [apply patch_clear|]. split; [apply patch_untouched|].
  split; intros s n -> Hz; rewrite patch_slide by exact Hz.
  - intros Hr. f_equal. apply set_expiration_exact; assumption.
  - intros Hn now Hnow. cbn [fst]. pose proof (set_expiration_nonzero s n Hz Hn).
    unfold expired. rewrite <- (set_expiration_side s n now Hz Hnow). tauto.
Qed.
Print Assumptions C30_clear_slide.

(* SetExpirationTime of the pinned commit let UnixNano wrap: a valid timestamp in the year 2300
   was stored as an already expired instant. *)
Theorem C30_far_future_wrap_refuted_before_fix :
  exists s n now, ts_is_valid s n = true /\ 0 < now <= max_i64 /\ now < instant s n /\
                  expired now (set_expiration_time false s n).
Proof.
  exists 10413792000, 0, 1790000000000000000. unfold expired. vm_compute.
  repeat split; try discriminate; reflexivity.
Qed.
Print Assumptions C30_far_future_wrap_refuted_before_fix.

(* What the three input paths accept (they differ: Set ignores whole-second pre-epoch instants and
   the epoch, Increment metadata and Patch meta ignore only Go's zero time). *)
Theorem C30_input_acceptance : forall sat s n e, ts_is_valid s n = true ->
  (snd (set_path sat (Some (s, n)) e) = (0 <? s) || (0 <? n)) /\
  (snd (inc_path sat (Some (s, n)) e) = negb (is_zero_time s n)) /\
  (snd (patch_path sat false (Some (s, n)) e) = negb (is_zero_time s n)).
Proof.
  intros sat s n e Hv. unfold set_path, inc_path, patch_path. rewrite Hv. cbn [andb].
  destruct ((0 <? s) || (0 <? n)); destruct (negb (is_zero_time s n)); repeat split; reflexivity.
Qed.
Print Assumptions C30_input_acceptance.

(* What Get reports (seconds, nanos) is the stored value. *)
Theorem C30_wire_roundtrip : forall e,
  instant (wire_seconds e) (wire_nanos e) = e /\ 0 <= wire_nanos e < giga.
Proof.
  intros e. unfold instant, wire_seconds, wire_nanos. split.
  - rewrite Z.mul_comm. symmetry. apply Z.div_mod. discriminate.
  - apply Z.mod_pos_bound. reflexivity.
Qed.
Print Assumptions C30_wire_roundtrip.
