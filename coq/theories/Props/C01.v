(* Props/C01.v — Storage log replays to the last-writer-wins state.
   Property theorems; what they rest on is proved in Storage/*Proofs.v.
   Models: Storage/Format.v (byte codecs with Go's truncating length fields), Writer.v (the
   FileWriter over logical files, flush decisions are inputs), Reader.v (bytes of a logical
   file, FileReader/LoadIndex on bytes), Lww.v (the last-writer-wins specification).
   B = byte strings (list N).  compress/decompress/crc are arbitrary functions with
   decompress (compress x) = Some x. *)
From HV Require Import Base.Prelude Storage.Format Storage.FormatProofs Storage.Lww Storage.LwwProofs
  Storage.Writer Storage.WriterProofs Storage.Reader Storage.ReaderProofs Storage.ReplayProofs
  Storage.ChronV2 Storage.ChronProofs.
Local Open Scope N_scope.

Theorem C01_entry_roundtrip : forall e r,
  1 <= nlen (e_key e) /\ nlen (e_key e) < two16 /\ nlen (e_data e) < two32 ->
  deser_entry (ser_entry e ++ r) = Some (e, r).
Proof. exact entry_roundtrip. Qed.
Print Assumptions C01_entry_roundtrip.

Theorem C01_block_roundtrip : forall es r,
  Forall wf_entry es -> parse_entries (length es) (ser_entries es ++ r) = Some es.
Proof. exact entries_roundtrip. Qed.
Print Assumptions C01_block_roundtrip.

(* the reader applied to the bytes of any well-formed logical file (V2 or V3, any header
   metadata) returns its name and exactly its blocks *)
Theorem C01_file_roundtrip :
  forall (compress : list N -> list N) (decompress : list N -> option (list N)) (crc : list N -> N),
  (forall x, decompress (compress x) = Some x) ->
  forall hm f, ver_ok f -> wf_file (list N) (list N) (list N) nlen nlen (Reader.cfits compress) f ->
  read_file decompress crc (render compress crc hm f)
  = Some (seen_header hm f, stored_name f, map (map to_entry) (f_blocks f)).
Proof. exact file_roundtrip. Qed.
Print Assumptions C01_file_roundtrip.

(* LoadIndex's fold is last-writer-wins: the most recent write to a key decides, for any
   key type with decidable equality and any payload type *)
Theorem C01_index_fold_is_lww :
  forall (K D : Type) (keqb : K -> K -> bool), (forall a b, keqb a b = true <-> a = b) ->
  forall es k,
    mget K D keqb (replay K D keqb es) k = lww_get K D keqb (writes_of K D es) k /\
    NoDup (mkeys K D (replay K D keqb es)).
Proof. exact (fun K D keqb H es k => conj (replay_lww K D keqb H es k) (replay_nodup K D keqb H es)). Qed.
Print Assumptions C01_index_fold_is_lww.

(* For every history of open/write/flush/sync/close operations in any number of
   sessions, with every placement of flush boundaries (the [fl] flag of each write is
   universally quantified, hence every block size), starting without a file: if every call
   returned ok and the last session was closed, loading the bytes on disk yields exactly the
   last-writer-wins map of the written entries (each key at most once), and the stored name
   is the one given when the file was created. *)
Theorem C01_replay_lww :
  forall (compress : list N -> list N) (decompress : list N -> option (list N)) (crc : list N -> N),
  (forall x, decompress (compress x) = Some x) ->
  forall hm (ops : list (wop (list N) (list N) (list N))) st' rs f,
  brun compress true init ops = (st', rs) -> all_ok rs = true ->
  s_w st' = None -> s_file st' = Some f ->
  exists m nm,
    load_index decompress crc (render compress crc hm f) = Some (m, nm) /\
    (forall k, mget (list N) (list N) bytes_eqb m k = lww_get (list N) (list N) bytes_eqb (bwrites ops) k) /\
    NoDup (mkeys (list N) (list N) m) /\
    first_open (list N) (list N) (list N) ops = Some (f_name f) /\ f_ver f = Version3 /\
    (f_name f <> [] -> nm = f_name f).
Proof.
  intros compress decompress crc Hrt hm ops st' rs f Hrun Hok Hw Hf.
  destruct (run_first_open Hrun Hok Hf) as (Hfo & Hv & Hn%name_fits).
  destruct (replay_lww_from compress decompress crc Hrt hm _ _ _ _ _ (inv_init compress) Hrun Hok Hw Hf
              (or_intror (conj Hv Hn))) as (m & nm & Hl & Hm & Hnd & Hnm).
  exists m, nm. repeat split; auto.
Qed.
Print Assumptions C01_replay_lww.

(* the same for sessions appending to any well-formed existing file, legacy V2 included *)
Theorem C01_replay_lww_existing_file :
  forall (compress : list N -> list N) (decompress : list N -> option (list N)) (crc : list N -> N),
  (forall x, decompress (compress x) = Some x) ->
  forall hm f0 (ops : list (wop (list N) (list N) (list N))) st' rs f,
  ver_ok f0 -> wf_file (list N) (list N) (list N) nlen nlen (Reader.cfits compress) f0 ->
  brun compress true (mkS (Some f0) None) ops = (st', rs) -> all_ok rs = true ->
  s_w st' = None -> s_file st' = Some f ->
  exists m nm,
    load_index decompress crc (render compress crc hm f) = Some (m, nm) /\
    (forall k, mget (list N) (list N) bytes_eqb m k =
               lww_get (list N) (list N) bytes_eqb
                 (writes_of (list N) (list N) (concat (f_blocks f0) ++ flat_map ents ops)) k) /\
    NoDup (mkeys (list N) (list N) m) /\
    f_name f = f_name f0 /\ f_ver f = f_ver f0.
Proof.
  intros compress decompress crc Hrt hm f0 ops st' rs f Hv0 Hwf0 Hrun Hok Hw Hf.
  destruct (run_file Hrun (Inv_closed Hwf0) eq_refl Hf) as (_ & Hn & Hv & _).
  destruct (replay_lww_from compress decompress crc Hrt hm (mkS (Some f0) None) _ _ _ _ (Inv_closed Hwf0) Hrun Hok Hw Hf)
    as (m & nm & Hl & Hm & Hnd & _); [unfold ver_ok; now rewrite Hn, Hv|].
  rewrite (@closed_log _ _ _ (mkS (Some f0) None) f0 eq_refl eq_refl) in Hm. exists m, nm. auto.
Qed.
Print Assumptions C01_replay_lww_existing_file.

(* Any history of Write (batches of treasures: deleted / encoded, insert or update)
   / Sync / Close calls of the V2 chronicler on a fresh swamp, any flush placement: if every
   underlying writer call succeeded and the history ends closed, the file loads to the
   last-writer-wins state of the treasures (deleted => absent) under the swamp's name. *)
Theorem C01_chronicler_replay_lww :
  forall (compress : list N -> list N) (decompress : list N -> option (list N)) (crc : list N -> N),
  (forall x, decompress (compress x) = Some x) ->
  forall hm (name : list N) (cs : list (cop (list N) (list N))) st' tr acks f,
  crun (list N) (list N) (list N) nlen nlen nlen (Reader.cfits compress) true [] name init cs = (st', tr, acks) ->
  all_ok (map snd tr) = true -> s_w st' = None -> s_file st' = Some f ->
  exists m nm,
    load_index decompress crc (render compress crc hm f) = Some (m, nm) /\
    (forall k, mget (list N) (list N) bytes_eqb m k =
               lww_get (list N) (list N) bytes_eqb (flat_map cop_writes cs) k) /\
    NoDup (mkeys (list N) (list N) m) /\ f_name f = name /\ (name <> [] -> nm = name).
Proof.
  intros compress decompress crc Hrt hm name cs st' tr acks f Hc Hok Hw Hf.
  destruct (crun_trace Hc) as (Hr & He & Ho).
  destruct (C01_replay_lww compress decompress crc Hrt hm _ _ _ f Hr Hok Hw Hf)
    as (m & nm & Hl & Hm & Hnd & Hfo%Ho & _ & Hn).
  unfold bwrites in Hm. rewrite (He Hok), cop_entries_writes in Hm. rewrite Hfo in Hn. exists m, nm. auto.
Qed.
Print Assumptions C01_chronicler_replay_lww.

(* every chronicler history performs a run of the writer model (so all writer-level theorems,
   including the ones about rejected calls, apply to it) *)
Theorem C01_chronicler_is_a_writer_run :
  forall (K D NM : Type) (klen : K -> N) (dlen : D -> N) (nmlen : NM -> N) (cfits : list (lentry K D) -> bool)
         (guard : bool) (dnil : D) name cs st st' tr acks,
  crun K D NM klen dlen nmlen cfits guard dnil name st cs = (st', tr, acks) ->
  run K D NM klen dlen nmlen cfits guard st (map fst tr) = (st', map snd tr) /\
  (all_ok (map snd tr) = true ->
   flat_map ents (map fst tr) = flat_map (cop_entries K D dnil) cs).
Proof.
  intros K D NM klen dlen nmlen cfits guard dnil name cs st st' tr acks H.
  destruct (crun_trace H) as (Hr & He & _). auto.
Qed.
Print Assumptions C01_chronicler_is_a_writer_run.

(* histories with failing calls (any key/payload/name type): if no block exceeds the 4 GiB
   header fields, file + buffer always stand for exactly the accepted entries in order *)
Theorem C01_log_is_the_accepted_writes :
  forall (K D NM : Type) (klen : K -> N) (dlen : D -> N) (nmlen : NM -> N) (cfits : list (lentry K D) -> bool),
  (forall b, cfits b = true) ->
  forall ops st st' rs,
  InvC K D NM st -> run K D NM klen dlen nmlen cfits true st ops = (st', rs) ->
  InvC K D NM st' /\ log st' = log st ++ accepted K D NM ops rs /\ length rs = length ops.
Proof. exact run_any_results. Qed.
Print Assumptions C01_log_is_the_accepted_writes.

(* one call of such a history: the buffer stays below the cap, the log grows by the entry if
   the call was accepted, and a call that returns an error changes nothing *)
Theorem C01_failed_call_changes_nothing :
  forall (K D NM : Type) (klen : K -> N) (dlen : D -> N) (nmlen : NM -> N) (cfits : list (lentry K D) -> bool),
  (forall b, cfits b = true) ->
  forall st op st' r,
  InvC K D NM st -> step K D NM klen dlen nmlen cfits true st op = (st', r) ->
  InvC K D NM st' /\ log st' = log st ++ acc1 K D NM op r /\ (r = RErr -> st' = st).
Proof. exact step_any_result. Qed.
Print Assumptions C01_failed_call_changes_nothing.

(* The current, repaired writer: exactly the entries outside the encodable
   range (empty key, key of 65536+ bytes, payload of 2^32+ bytes) are refused, with no effect
   at all; an over-long name is refused and no file appears; and whatever the history, every
   block of the file is well-formed: non-empty, at most 65535 entries, fitting the header. *)
Theorem C01_unencodable_rejected :
  forall (K D NM : Type) (klen : K -> N) (dlen : D -> N) (nmlen : NM -> N) (cfits : list (lentry K D) -> bool),
  (forall st e fl, encodable K D klen dlen e = false ->
     step K D NM klen dlen nmlen cfits true st (OWrite e fl) = (st, RErr)) /\
  (forall st e fl st', step K D NM klen dlen nmlen cfits true st (OWrite e fl) = (st', ROk) ->
     encodable K D klen dlen e = true) /\
  (forall nm, MaxNameSize < nmlen nm -> step K D NM klen dlen nmlen cfits true init (OOpen nm) = (init, RErr)) /\
  (forall ops st, Inv K D NM klen dlen cfits st ->
     Inv K D NM klen dlen cfits (fst (run K D NM klen dlen nmlen cfits true st ops))).
Proof.
  exact (fun K D NM klen dlen nmlen cfits =>
    conj (write_unencodable_rejected K D NM klen dlen nmlen cfits)
   (conj (write_ok_encodable K D NM klen dlen nmlen cfits)
   (conj (open_long_name_rejected K D NM klen dlen nmlen cfits)
         (run_inv K D NM klen dlen nmlen cfits)))).
Qed.
Print Assumptions C01_unencodable_rejected.

(* The writer of the pinned commit (guard = false) did not have the rejection clause: every
   call of these three histories succeeds and the resulting file cannot be loaded at all.  They
   are the reason for the fix: commit. *)
Theorem C01_unencodable_rejected_refuted_pinned_long_key :
  is_some (final_bytes false long_key_ops) = true /\ loads (final_bytes false long_key_ops) = None.
Proof. apply old_writer_key_wraps; rewrite nlen_bytes_n; reflexivity. Qed.
Print Assumptions C01_unencodable_rejected_refuted_pinned_long_key.

Theorem C01_unencodable_rejected_refuted_pinned_empty_key :
  is_some (final_bytes false empty_key_ops) = true /\ loads (final_bytes false empty_key_ops) = None.
Proof. now apply old_writer_key_wraps. Qed.
Print Assumptions C01_unencodable_rejected_refuted_pinned_empty_key.

Theorem C01_unencodable_rejected_refuted_pinned_long_name :
  is_some (final_bytes false long_name_ops) = true /\ loads (final_bytes false long_name_ops) = None.
Proof. exact old_writer_long_name_refuted. Qed.
Print Assumptions C01_unencodable_rejected_refuted_pinned_long_name.

(* 65536 entries in one block: the pinned Flush stores the count as uint16(65536) = 0, so the
   reader accepts the block and finds no entry in it - for every such block, any compressor *)
Theorem C01_unencodable_rejected_refuted_pinned_block_count :
  forall (compress : list N -> list N) (decompress : list N -> option (list N)) (crc : list N -> N),
  (forall x, decompress (compress x) = Some x) ->
  forall b : list (lentry (list N) (list N)), nlen b = two16 ->
  parse_block decompress crc (trunc_bh (block_header compress crc b)) (block_payload compress b) = Some [].
Proof.
  intros compress decompress crc Hrt b Hn. rewrite (parse_block_any compress decompress crc Hrt), Hn.
  reflexivity.
Qed.
Print Assumptions C01_unencodable_rejected_refuted_pinned_block_count.
