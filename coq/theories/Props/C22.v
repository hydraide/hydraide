(* Props/C22.v — SDK model save/read round-trips exactly; a field's tag name never changes how
   another part of the model is encoded or decoded.
   Models: Sdk/Tags.v (the three readers of a hydraide tag) and Sdk/Conv.v
   (encoder, gateway slot precedence, decoder; flag sub = false is the current exact-head code,
   sub = true the substring tests before the repair).  The models are tied to the Go code by the
   C22 correspondence check (real SDK over bufconn, generated struct types). *)
From HV Require Import Base.Prelude Gen.C22Consts Sdk.Tags Sdk.TagsProofs Sdk.Conv Sdk.ConvCheck Sdk.ConvProofs.
Local Open Scope N_scope.

(* For every tag, the encoder's and the decoder's chains of tests select exactly the reserved
   slot that inspectCatalogModel assigns to the tag's head (and none for body / ignored tags). *)
Theorem C22_tag_dispatch_agrees : forall tag,
  enc_roles false tag = reserved_part (inspect_role tag) /\
  dec_role false tag = reserved_opt (inspect_role tag).
Proof.
  intro tag. destruct (tests_by_role tag) as (Hk & Hv & Hm).
  unfold enc_roles, dec_role. cbn [first_match].
  change (tag_test false tag_key tag) with (enc_key_test false tag).
  rewrite Hk, Hv, Hm. destruct (inspect_role tag); split; reflexivity.
Qed.
Print Assumptions C22_tag_dispatch_agrees.

(* Before the repair (strings.Contains): "keywords" is the key for the decoder, "values" the value
   for the encoder, and one field can take two encoder branches. *)
Theorem C22_tag_dispatch_refuted_substring :
  (exists tag, dec_role true tag <> reserved_opt (inspect_role tag)) /\
  (exists tag, enc_roles true tag <> reserved_part (inspect_role tag)) /\
  (exists tag, length (enc_roles true tag) = 2%nat).
Proof.
  split; [|split].
  - exists w_keywords. vm_compute. discriminate.
  - exists w_values. vm_compute. discriminate.
  - (* "valueexpireAt" *)
    exists [118;97;108;117;101;101;120;112;105;114;101;65;116]. vm_compute. reflexivity.
Qed.
Print Assumptions C22_tag_dispatch_refuted_substring.

(* What held before the repair: a tag that contains no reserved name anywhere is a body field
   (or ignored) for all three readers. *)
Theorem C22_tag_dispatch_partial_substring : forall tag,
  no_reserved_substring tag = true ->
  enc_roles true tag = reserved_part (inspect_role tag) /\
  dec_role true tag = reserved_opt (inspect_role tag) /\
  reserved_part (inspect_role tag) = [].
Proof. exact tag_dispatch_partial_substring. Qed.
Print Assumptions C22_tag_dispatch_partial_substring.

(* Renaming a map-body field to any other non-reserved head (same omitempty option) leaves the
   key / typed value / VoidVal / metadata assignments, the shape and every other field's body
   entry unchanged; the renamed field's own entry keeps its value.  Any codec. *)
Theorem C22_field_isolation : forall (B : Type) (C : codec B) msgp pre post nm v t t',
  is_body (inspect_role t) = true -> is_body (inspect_role t') = true -> has_omit t = has_omit t' ->
  let m := pre ++ Build_field nm (Some t) v :: post in
  let m' := pre ++ Build_field nm (Some t') v :: post in
  enc_fields B C false msgp m = enc_fields B C false msgp m' /\
  inspect m = inspect m' /\
  exists e e',
    body_entries m = body_entries pre ++ e ++ body_entries post /\
    body_entries m' = body_entries pre ++ e' ++ body_entries post /\
    map snd e = map snd e' /\ (length e <= 1)%nat.
Proof. intros B C msgp pre post nm. exact (field_isolation B C msgp pre post nm nm). Qed.
Print Assumptions C22_field_isolation.

(* Decoder side: whatever the treasure holds, a field whose tag head is not reserved is never
   written by the key / value / metadata branches. *)
Theorem C22_field_isolation_decoder : forall (B : Type) (C : codec B) t nm tag v cur,
  is_body (inspect_role tag) = true \/ inspect_role tag = RNone ->
  dec_reserved B C false t (Build_field nm (Some tag) v) cur = Ok cur.
Proof.
  intros B C t nm tag v cur Hb. unfold dec_reserved. cbn [f_tag].
  rewrite (proj2 (C22_tag_dispatch_agrees tag)), (body_or_none _ Hb). reflexivity.
Qed.
Print Assumptions C22_field_isolation_decoder.

(* Before the repair, renaming the body field `title` to `values` changed the typed value slot of
   the KeyValuePair (it gained StringVal, which the server prefers to the body). *)
Theorem C22_field_isolation_refuted_substring :
  enc_fields sblob sym true false witness_title <> enc_fields sblob sym true false witness_values /\
  enc_fields sblob sym false false witness_title = enc_fields sblob sym false false witness_values.
Proof. split; [vm_compute; discriminate | vm_compute; reflexivity]. Qed.
Print Assumptions C22_field_isolation_refuted_substring.

(* Before the repair the accepted model {key "d1", keywords "alpha beta"} read back
   {key "d1", keywords "d1"}; with exact-head tests it round-trips. *)
Theorem C22_roundtrip_refuted_substring :
  save_read sblob sym true false witness_keywords = Ok [VStr w_d1; VStr w_d1] /\
  save_read sblob sym false false witness_keywords = Ok [VStr w_d1; VStr w_ab].
Proof. split; vm_compute; reflexivity. Qed.
Print Assumptions C22_roundtrip_refuted_substring.

(* Round trip, part 1 (frame): in the assignments made for a whole accepted model, the slots
   owned by a role hold exactly what the single field of that role put there. *)
Theorem C22_roundtrip_frame_partial : forall (B : Type) (C : codec B) msgp pre f post l sn,
  enc_fields B C false msgp (pre ++ f :: post) = Ok l ->
  owner sn = frole f ->
  (forall g, In g (pre ++ post) -> frole g <> frole f) ->
  exists lf, enc_field B C false msgp f = Ok lf /\ raw_get B sn l = raw_get B sn lf.
Proof. exact frame. Qed.
Print Assumptions C22_roundtrip_frame_partial.

(* Round trip, part 2 (value slot): for any codec whose gob / msgpack decode inverts encode up to
   nil/empty, what a value field writes (VoidVal + typed slot, with or without omitempty), after
   the gateway's first-non-nil-slot precedence, decodes back to the saved value - for every value
   except sub-second times, plain structs and chan/func (the recorded findings). *)
Theorem C22_roundtrip_value_slot_partial : forall (B : Type) (C : codec B),
  (forall b, c_unraw B C (c_raw B C b) = b) ->
  (forall msgp v b, c_enc B C msgp v = Some b ->
     exists v', c_dec B C b (zero_of v) = Some v' /\ canon v' = canon v) ->
  forall msgp omit v l,
  value_exact v = true ->
  (if omit && is_empty v then Ok (if is_empty v then [(SnVoid, PBool B true)] else [])
   else res_app B (Ok (if is_empty v then [(SnVoid, PBool B true)] else [])) (conv_field B C msgp v)) = Ok l ->
  exists v', set_from B C (pick_content B l) (zero_of v) = Ok v' /\ canon v' = canon v.
Proof. exact value_slot_roundtrip. Qed.
Print Assumptions C22_roundtrip_value_slot_partial.
