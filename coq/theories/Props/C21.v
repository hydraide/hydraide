(* Props/C21.v — Swamp settings resolve deterministically from registered patterns.
   Property theorems; what they rest on is proved in Settings/PatternProofs.v.
   Model: [Settings/Pattern.v] (registry = the Go map s.patterns as an association list in
   *any* iteration order; skip_quirk = false is the current code), tied to
   app/core/settings/settings.go by the C21 correspondence check. *)
From HV Require Import Base.Prelude Settings.Pattern Settings.PatternProofs.
From Coq Require Import Permutation.
Local Open Scope N_scope.

(* [wf_events]: the registrations are settings as RegisterPattern stores them (in-memory ones
   carry no write interval / file size: [mk_sett_wf]).
   For every history of registrations / re-registrations / deregistrations and every map
   iteration order, GetBySwampName returns the setting of the most specific registered
   pattern that matches the name (the last registration of a pattern counts). *)
Theorem C21_most_specific_wins : forall evs order n,
  wf_events evs ->
  Permutation (run false evs) order ->
  lookup_best order n = spec_lookup evs n.
Proof.
  intros evs order n Hwf Hp. symmetry. apply pick_most_specific, scan_in_force; assumption.
Qed.
Print Assumptions C21_most_specific_wins.

(* [spec_lookup] is what the property text says: a registered matching pattern at least as
   specific as every other registered matching pattern, or the default when none matches. *)
Theorem C21_spec_is_most_specific : forall evs n,
  wf_events evs ->
  (exists p s, last_reg evs p = Some s /\ matches n p = true /\ spec_lookup evs n = s /\
               forall q s', last_reg evs q = Some s' -> matches n q = true -> rank q <= rank p)
  \/ ((forall q, matches n q = true -> last_reg evs q = None) /\ spec_lookup evs n = default_sett).
Proof.
  intros evs n Hwf.
  pose proof (scan_in_force evs _ n Hwf (Permutation_refl _)) as H.
  pose proof (pick_most_specific _ _ _ H) as Hpick. fold (spec_lookup evs n) in Hpick.
  destruct (fold_left (best_step n) (run false evs) None) as [[p s]|]; simpl in *.
  - left. exists p, s. tauto.
  - right. split; [|exact Hpick]. intros q Hq.
    destruct (last_reg evs q) as [s|] eqn:E; [rewrite (H q s E) in Hq; discriminate | reflexivity].
Qed.
Print Assumptions C21_spec_is_most_specific.

(* The answer depends only on the set of registrations in force, not on the order in which
   they were made nor on the iteration order of the map. *)
Theorem C21_order_independent : forall evs evs' order order' n,
  wf_events evs -> wf_events evs' ->
  (forall p, last_reg evs p = last_reg evs' p) ->
  Permutation (run false evs) order -> Permutation (run false evs') order' ->
  lookup_best order n = lookup_best order' n.
Proof.
  intros evs evs' order order' n Hwf Hwf' H Hp Hp'.
  rewrite (C21_most_specific_wins evs order n Hwf Hp), (C21_most_specific_wins evs' order' n Hwf' Hp').
  unfold spec_lookup. apply pick_ext, H.
Qed.
Print Assumptions C21_order_independent.

(* Specificity has no ties among the patterns matching one name. *)
Theorem C21_specificity_total : forall n p q,
  matches n p = true -> matches n q = true -> rank p = rank q -> p = q.
Proof.
  intros n p q Hp Hq E. rewrite (matches_cand n p Hp), (matches_cand n q Hq), E. reflexivity.
Qed.
Print Assumptions C21_specificity_total.

(* The same settings apply after a restart (save to settings.json, reload). *)
Theorem C21_restart_stable : forall evs n,
  wf_events evs ->
  lookup_best (load (save (run false evs))) n = lookup_best (run false evs) n.
Proof. exact restart_stable. Qed.
Print Assumptions C21_restart_stable.

(* Restarts may also happen anywhere inside a history (register, restart, register, look up,
   ...): every lookup is answered as in the history without the restarts. *)
Theorem C21_restarts_invisible : forall evs order order' n,
  wf_events evs ->
  Permutation (run false evs) order ->
  Permutation (run false (filter (fun e => negb (is_restart e)) evs)) order' ->
  lookup_best order n = lookup_best order' n.
Proof.
  intros evs order order' n Hwf Hp Hp'.
  apply (C21_order_independent evs (filter (fun e => negb (is_restart e)) evs)); try assumption.
  - apply wf_events_filter, Hwf.
  - intro p. symmetry. apply last_reg_ignores_restarts.
Qed.
Print Assumptions C21_restarts_invisible.

(* A pattern is out of force immediately after its deregistration: lookups are answered from
   the registrations in force at that moment (C21_most_specific_wins applies to every prefix
   of a history). *)
Theorem C21_deregistered_pattern_not_in_force : forall evs p,
  last_reg (evs ++ [Dereg p]) p = None.
Proof.
  intros evs p. unfold last_reg. rewrite fold_left_app. simpl. rewrite pat_eqb_refl. reflexivity.
Qed.
Print Assumptions C21_deregistered_pattern_not_in_force.

(* Pinned commit: first match in map iteration order - two orders, two answers. *)
Theorem C21_order_independent_refuted_for_first_match :
  exists evs order1 order2 n,
    Permutation (run false evs) order1 /\ Permutation (run false evs) order2 /\
    in_mem (lookup_first order1 n) = true /\ in_mem (lookup_first order2 n) = false.
Proof.
  exists [Reg pA sMem; Reg pB sDisk], [(pA, sMem); (pB, sDisk)], [(pB, sDisk); (pA, sMem)], nABC.
  split; [vm_compute; apply perm_swap|]. split; [vm_compute; apply Permutation_refl|].
  split; vm_compute; reflexivity.
Qed.
Print Assumptions C21_order_independent_refuted_for_first_match.

(* ... it was right only when at most one registered pattern matches the name. *)
Theorem C21_first_match_partial : forall r n,
  (forall e1 e2, In e1 r -> In e2 r -> matches n (fst e1) = true -> matches n (fst e2) = true -> e1 = e2) ->
  lookup_first r n = lookup_best r n.
Proof. exact first_match_partial. Qed.
Print Assumptions C21_first_match_partial.

(* Pinned commit: an in-memory pattern re-registered as persistent with zero filesystem
   settings was skipped as "unchanged". *)
Theorem C21_last_registration_refuted_with_skip_quirk :
  exists evs p, option_map in_mem (last_reg evs p) = Some false /\
                option_map in_mem (assoc (run true evs) p) = Some true.
Proof.
  exists [Reg pA (mk_sett true 10 0 0); Reg pA (mk_sett false 10 0 0)], pA.
  split; vm_compute; reflexivity.
Qed.
Print Assumptions C21_last_registration_refuted_with_skip_quirk.
