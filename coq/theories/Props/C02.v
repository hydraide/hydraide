(* Props/C02.v — Crash at any point never loses durable data or the swamp.
   Property theorems; what they rest on is proved in
   Storage/C02Proofs.v / C02WriterProofs.v / C02Examples.v.
   Models: Storage/C02Fs.v (file image, reader), C02Writer.v (writer.go after the repairs,
   flush placement / payload sizes / write faults as oracles), C02Crash.v (crash images).
   They are tied to the code by the C02 correspondence check (strace-captured op logs of the
   real chronicler, every crash image loaded by the real Load, append + reload). *)
From HV Require Import Base.Prelude Storage.C02Fs Storage.C02Writer Storage.C02Crash
  Storage.C02Proofs Storage.C02WriterProofs Storage.C02Examples.
Local Open Scope N_scope.

(* For every swamp-name length, every legal start state (the empty file system, or the disk
   after any earlier crash), every API history h (any placement of flushes, any payload sizes,
   any interleaved write faults), every prefix p of the file operations it issues (a crash
   between or inside any two operations: the cut k of the image may fall at ANY byte of the
   in-flight write) and every crash image img of the state reached:
   the next load does not fail because of the torn tail – the reader errs only when no block
   was ever completely written and the header area itself is incomplete, in which case the
   swamp is legitimately empty –, it returns exactly the blocks up to a flush boundary cs
   with  durable blocks D <= cs <= written blocks B  (so it contains everything synced before
   the crash), D contains what was durable at the start, and the image is again a legal start
   state (the statement therefore covers any number of successive crashes). *)
Theorem C02_crash_recovers_flush_boundary : forall nlen f0 h p q img,
  start_ok nlen f0 -> Forall api_ok h ->
  oplog nlen f0 w_closed h = p ++ q ->
  crash_image nlen (fs_run f0 p) img ->
  let D := loaded_blocks true (dur (fs_run f0 p)) in
  let B := loaded_blocks true (vol (fs_run f0 p)) in
  exists cs,
    (recover true img = Some cs \/ (recover true img = None /\ cs = [] /\ D = [])) /\
    prefix D cs /\ prefix cs B /\
    prefix (loaded_blocks true (dur f0)) D /\
    start_ok nlen (fs_crashed img).
Proof.
  intros nlen f0 h p q img H0 Hh Hlog. exact (crash_recovers _ _ _ _ _ (oplog_prefix_ok _ _ _ _ _ H0 Hh Hlog)).
Qed.
Print Assumptions C02_crash_recovers_flush_boundary.

(* Everything submitted before a successful Sync/Close is durable after it (in order, nothing
   else), provided no Close failed in between (a failed Close discards its buffer and reports
   the error). With the theorem above: every later crash recovery contains it. Taking f0 =
   [fs_crashed img] this is also "writes made after a recovery are themselves recoverable":
   the durable log is the recovered log followed by the new writes. *)
Theorem C02_synced_entries_durable : forall nlen f0 h f1 w1 ops1 oks1 a w2 ops2,
  start_ok nlen f0 -> Forall api_ok h -> api_ok a -> is_barrier a = true ->
  w_run nlen f0 w_closed h = (f1, w1, ops1, oks1) -> no_failed_close h oks1 = true ->
  w_open w1 = true -> w_step nlen f1 w1 a = (w2, ops2, true) ->
  let f2 := fs_run f1 ops2 in
  elog_of (loaded_blocks true (dur f2)) =
    elog_of (loaded_blocks true (vol f0)) ++ submitted false h /\
  loaded_blocks true (vol f2) = loaded_blocks true (dur f2) /\
  w_buf w2 = [].
Proof. exact synced_entries_durable. Qed.
Print Assumptions C02_synced_entries_durable.

(* The empty file system is a legal start state (the theorems are not vacuous), and a concrete
   torn image is recovered to the synced block. *)
Theorem C02_start_states_exist : forall nlen, start_ok nlen fs_empty.
Proof.
  intros nlen. exists [], []. repeat split; simpl; try (now apply sh_none); [apply prefix_refl|constructor].
Qed.
Print Assumptions C02_start_states_exist.

Theorem C02_example_torn_payload_recovered :
  crash_image 0 (fs_run fs_empty ex_p) ex_img /\ recover true ex_img = Some [ex_b1].
Proof. exact (conj ex_is_crash_image ex_tolerant_recovers). Qed.
Print Assumptions C02_example_torn_payload_recovered.

(* The code before the repairs (documentation of the defects that were fixed): with the strict
   reader a torn final payload makes a file with a durable block unreadable ... *)
Theorem C02_refuted_for_strict_reader :
  exists h p q img,
    oplog_gen false 0 fs_empty w_closed h = p ++ q /\
    crash_image 0 (fs_run fs_empty p) img /\
    recover false img = None /\
    loaded_blocks false (dur (fs_run fs_empty p)) <> [].
Proof.
  exists ex_h, ex_p, [OHdr], ex_img. split; [vm_compute; reflexivity|].
  split; [exact ex_is_crash_image|]. split; [vm_compute; reflexivity|]. vm_compute. discriminate.
Qed.
Print Assumptions C02_refuted_for_strict_reader.

(* ... and without truncation on open, writes after the recovery are lost even for a
   tolerant reader. *)
Theorem C02_refuted_without_truncate_on_open :
  let '(f2, _, _, oks) := w_run_gen false 0 (fs_crashed ex_img) w_closed
                            [AOpen; AWrite (3, Some 30) (Some (4, FFok)); AClose 1 FFok true] in
  oks = [true; true; true] /\
  state_of (loaded_blocks true (vol f2)) <> [(1, 10); (3, 30)] /\
  state_of (loaded_blocks false (vol f2)) <> [(1, 10); (3, 30)].
Proof. vm_compute. repeat split; discriminate. Qed.
Print Assumptions C02_refuted_without_truncate_on_open.
