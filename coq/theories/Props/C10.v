(* Props/C10.v — Concurrent use never crashes the server or races on memory; every read
   returns one committed version.  Property theorems; what they rest on is proved in
   Conc/LocksetProofs.v.  The access table (Conc/Lockset.v) is hand-written from the source
   and validated dynamically: every data race the race detector reports under mixed load is
   mapped (by stack) to a pair of rows, which must be a pair the table predicts racy. *)
From HV Require Import Base.Prelude Conc.Lockset Conc.LocksetProofs.

(* The lockset criterion is sound: in the interleaving semantics (any number of threads, any
   schedule; an access begins by acquiring its locks with RWMutex/guard compatibility), a
   table accepted by [race_free] has no reachable state with two threads inside conflicting accesses. *)
Theorem lockset_sound : forall tbl, race_free tbl = true ->
  forall n tr c', Forall (ev_in_table tbl) tr -> lrun (repeat None n) tr = Some c' ->
  forall i j a b, i <> j -> nth_error c' i = Some (Some a) -> nth_error c' j = Some (Some b) ->
                  conflict a b = false.
Proof.
  intros tbl Hf n tr c' Hev Hr i j a b. apply (linv_no_conflict tbl Hf).
  exact (linv_run tbl tr _ _ (linv_idle tbl n) Hev Hr).
Qed.
Print Assumptions lockset_sound.

(* The table of the current tree is NOT race free: record setters hold the guard only, the
   getters t.mu.RLock only, and the file-pointer writer of the flush callback (row 45) holds no
   lock at all.  The racy pairs are exactly these (row ids). *)
Theorem C10_lockset_race_free_refuted :
  race_free table = false /\
  racy_pairs table =
    [(20,22); (20,23); (20,70); (21,22); (21,23); (21,70); (30,31); (30,71); (32,33); (32,72); (34,35); (34,73); (36,37); (36,74); (38,40); (38,75); (39,40); (39,75); (41,42); (45,45); (45,46); (45,47); (46,47)]%N.
Proof. split; vm_compute; reflexivity. Qed.
Print Assumptions C10_lockset_race_free_refuted.

(* The unchanged tree also raced on the beacon's key map (GetAll handed out the live map that
   Gateway.GetAll and the cold index build iterate) - the crash of the property text;
   repaired by the fix: commit, kept as documentation. *)
Theorem C10_getall_live_map_refuted_before_fix :
  forallb (fun p => existsb (fun q => N.eqb (fst p) (fst q) && N.eqb (snd p) (snd q)) (racy_pairs table_before_fix))
          [(1,50); (2,50); (1,51); (2,51); (3,51)]%N = true.
Proof. vm_compute. reflexivity. Qed.
Print Assumptions C10_getall_live_map_refuted_before_fix.

(* What holds: the beacon rows (after the fix) are race free, and so is the whole table once
   the lock-free getters are left out; every other row is such a getter. *)
Theorem C10_lockset_race_free_partial :
  race_free beacon_rows = true /\ race_free table_guarded = true /\
  (forall a, In a table -> In a table_guarded \/ is_lockfree_getter a = true).
Proof.
  split; [vm_compute; reflexivity|]. split; [vm_compute; reflexivity|].
  intros a Ha. destruct (is_lockfree_getter a) eqn:E; [right; reflexivity|left].
  apply filter_In. split; [exact Ha|rewrite E; reflexivity].
Qed.
Print Assumptions C10_lockset_race_free_partial.

(* A read assembled from several getters is not single-version: with versions written as
   (i, i) the reader can obtain (2, 1), writer and reader each running in program order. *)
Theorem C10_read_single_version_refuted :
  exists tr, snd (rw_run {| f_value := 1; f_by := 1 |} (None, None) tr) = (Some 2%Z, Some 1%Z) /\
             filter (fun s => match s with WSetValue _ | WSetBy _ => true | _ => false end) tr
               = [WSetValue 2; WSetBy 2] /\
             filter (fun s => match s with RGetValue | RGetBy => true | _ => false end) tr
               = [RGetValue; RGetBy].
Proof. exists torn_witness. vm_compute. repeat split. Qed.
Print Assumptions C10_read_single_version_refuted.

(* Each single getter is atomic. *)
Theorem C10_read_single_getter_partial : forall r got pre,
  fst (snd (rw_run r got (pre ++ [RGetValue]))) = Some (f_value (fst (rw_run r got pre))) /\
  snd (snd (rw_run r got (pre ++ [RGetBy]))) = Some (f_by (fst (rw_run r got pre))).
Proof. intros r got pre. split; rewrite rw_run_app; reflexivity. Qed.
Print Assumptions C10_read_single_getter_partial.
