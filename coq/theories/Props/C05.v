(* Props/C05.v — Close and reload preserve every record exactly.
   Property theorems; what they rest on is proved in Record/GobProofs.v.
   gob is a parameter of every theorem but the last (a table about gob_spec itself), constrained
   only by its zero-omission law (gob c = gob_spec c), which the C05 harness validates on the
   real encoding/gob in every run.
   [true]/[false] select the current code (type hint ZeroOf/ZeroNeg in the serialized Content)
   and the pinned commit. *)
From HV Require Import Base.Prelude Record.Treasure Record.Gob Record.GobProofs.
Local Open Scope Z_scope.

(* After any history of API operations, close + re-summon shows every key exactly as before:
   existence, value type and value (zero-like values included), created/updated/expiry metadata. *)
Theorem C05_reload_identity : forall gob, (forall c, gob c = gob_spec c) ->
  forall h k, seen (reload gob true (run gob true h)) k = seen (run gob true h) k.
Proof. intros gob L h k. rewrite (reload_id gob L). reflexivity. Qed.
Print Assumptions C05_reload_identity.

(* stronger: the stored state is identical, not only its projection to the wire *)
Theorem C05_reload_state_identity : forall gob, (forall c, gob c = gob_spec c) ->
  forall h, reload gob true (run gob true h) = run gob true h.
Proof. intros gob L h. apply (reload_id gob L). Qed.
Print Assumptions C05_reload_state_identity.

(* Closes (idle eviction, shutdown) in the middle of a history, wherever they fall relative to
   the operations and to the writer's ticks, leave the same state as the history without them. *)
Theorem C05_mid_history_reloads_invisible : forall gob, (forall c, gob c = gob_spec c) ->
  forall h, run gob true h = run gob true (filter (fun o => negb (is_reload o)) h).
Proof. intros gob L h. apply (run_from_drop_reloads gob L). Qed.
Print Assumptions C05_mid_history_reloads_invisible.

(* every value of every content type survives ConvertToByte -> gob -> LoadFromByte *)
Theorem C05_value_roundtrip : forall gob, (forall c, gob c = gob_spec c) ->
  forall v, persist_value gob true v = v.
Proof. exact persist_value_fixed. Qed.
Print Assumptions C05_value_roundtrip.

(* The pinned commit: Set k (Uint8 0) reloads as a void record. *)
Theorem C05_reload_identity_refuted_before_fix : forall gob, (forall c, gob c = gob_spec c) ->
  exists h k, seen (reload gob false (run gob false h)) k <> seen (run gob false h) k.
Proof.
  intros gob L.
  exists [OWrite 1%N {| r_val := VU8 0; r_created := 0; r_created_by := []; r_modified := 0; r_modified_by := []; r_expiry := 0 |}], 1%N.
  unfold seen. rewrite lookup_reload. cbn. unfold persist. cbn [r_val].
  rewrite (persist_value_old gob L). discriminate.
Qed.
Print Assumptions C05_reload_identity_refuted_before_fix.

(* ... it lost exactly the zero-like values, *)
Theorem C05_value_loss_before_fix : forall gob, (forall c, gob c = gob_spec c) ->
  forall v, persist_value gob false v = if is_gob_zero v then VVoid else v.
Proof. exact persist_value_old. Qed.
Print Assumptions C05_value_loss_before_fix.

(* ... and was correct for histories storing none. *)
Theorem C05_reload_identity_partial_before_fix : forall gob, (forall c, gob c = gob_spec c) ->
  forall h, no_zero_values (run gob false h) -> forall k, seen (reload gob false (run gob false h)) k = seen (run gob false h) k.
Proof. intros gob L h. apply (reload_seen_old gob L). Qed.
Print Assumptions C05_reload_identity_partial_before_fix.

(* Existing files (written without the hint) are read by the current code exactly as before. *)
Theorem C05_old_files_load_unchanged : forall gob, (forall c, gob c = gob_spec c) ->
  forall v, of_content (from_wire true (gob (to_wire false (to_content v)))) =
            of_content (from_wire false (gob (to_wire false (to_content v)))).
Proof. intros gob L v. apply restore_zero_nohint. rewrite L. destruct v; reflexivity. Qed.
Print Assumptions C05_old_files_load_unchanged.

(* All 15 content types x {zero-like, other}: zero-like values came back void before the fix and
   come back intact now; all other values always did. *)
Theorem C05_exhaustive_types :
  forallb (fun v => value_eqb (persist_value gob_spec false v) VVoid) zero_values = true /\
  forallb (fun v => value_eqb (persist_value gob_spec true v) v) zero_values = true /\
  forallb (fun v => value_eqb (persist_value gob_spec false v) v) other_values = true /\
  forallb (fun v => value_eqb (persist_value gob_spec true v) v) other_values = true /\
  map ctype zero_values = [1;2;3;4;5;6;7;8;9;9;10;10;11;12;13;14]%N /\
  map ctype other_values = [0;1;2;3;4;5;6;7;8;9;10;11;12;13;14]%N.
Proof. vm_compute. repeat split. Qed.
Print Assumptions C05_exhaustive_types.
