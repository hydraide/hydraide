(* Props/C11.v — Claims hand out disjoint, matching, oldest-first records.
   The model (Swamp/Claims.v, configuration [cfg_now]) is tied to gateway_shift_matching.go,
   gateway_patch_expired.go, beacon.go, swamp.go and swamp_patch_expired.go by the C11
   correspondence check (forced schedules through the predicateBuilt / selected / beforeReindex
   hook points, sequential histories, free-running stress with 8 claimers + writers).
   Scope of the model: all claimers walk the same ordered index (the expiry index). *)
From HV Require Import Base.Prelude Swamp.Claims Swamp.ClaimsProofs.
From Coq Require Import Sorted.

(* For any number of ShiftExpired / ShiftMatching / PatchExpired claimers and of writers
   (delete, create/overwrite, patch, expiry change), any initial swamp with distinct keys and
   every schedule: whatever selection step is taken in the reached state returns at most HowMany
   records, oldest first; each satisfies the caller's full criteria (expired, full filter) in the
   state of that very step and is alive; none is in [cl] = the keys already claimed and not
   (re-)inserted into the index since (by a create, an expiry change, or the completion of an
   in-place claim): selection and removal are one atomic step, so two claimers never receive the
   same record.
   [ks] is any candidate key set, not only the one the gateway built.  The last conjunct unfolds
   [select]: it is there to be read. *)
Theorem C11_selection : forall rs ps sched hm od p ks,
  NoDup (map rk rs) ->
  let s := run cfg_now sched (init rs ps) in
  let sel := select cfg_now hm od p ks s in
  length sel <= hm /\
  (forall r, In r sel -> crit od p r = true /\ ralive r = true /\ In (rk r) (slice s) /\ ~ In (rk r) (cl s)) /\
  StronglySorted le_exp sel /\
  sel = firstn hm (filter (pred cfg_now od p ks) (walk s)).
Proof.
  intros rs ps sched hm od p ks H s sel. split; [|split; [|split; [apply select_sorted|reflexivity]]].
  - unfold sel, select. rewrite firstn_length. lia.
  - intros r Hr. apply (select_ok (c:=cfg_now) eq_refl (proj1 (reach_inv cfg_now rs ps sched eq_refl eq_refl H)) Hr).
Qed.
Print Assumptions C11_selection.

(* The monitors built into the model never fire on any schedule: 1 = a claimed key was already
   claimed and not re-inserted since (disjoint); 2 = a claimed record does not satisfy the full
   criteria at its selection step; 3 = a claimed record is not alive (a deleted record is never
   returned); 4 = a PatchExpired patch re-saved a record that is not in the swamp (a deleted
   record is never brought back to life). *)
Theorem C11_monitors_silent : forall rs ps sched,
  NoDup (map rk rs) -> bad (run cfg_now sched (init rs ps)) = [].
Proof. intros rs ps sched H. exact (proj2 (reach_inv cfg_now rs ps sched eq_refl eq_refl H)). Qed.
Print Assumptions C11_monitors_silent.

(* No resurrection, structurally. *)
Theorem C11_no_resurrection : forall rs ps sched,
  NoDup (map rk rs) ->
  let s := run cfg_now sched (init rs ps) in
  NoDup (slice s) /\ (forall k, In k (slice s) -> alive_k k (recs s) = true) /\
  (forall k, In k (cl s) -> ~ In k (slice s)).
Proof. intros rs ps sched H s. destruct (proj1 (reach_inv cfg_now rs ps sched eq_refl eq_refl H)); auto. Qed.
Print Assumptions C11_no_resurrection.

(* The pinned commit: an empty candidate list dropped the indexed condition. *)
Theorem C11_claimed_satisfied_criteria_refuted_empty_candidates :
  exists rs ps sched, NoDup (map rk rs) /\
    let s := run old_nil sched (init rs ps) in
    In 2%N (bad s) /\ length (lres (nth 0 (thr s) {| lpc := Done; lres := [] |})) = 5.
Proof.
  (* five pending records, ShiftMatching filtered on status = done (1): all five are claimed *)
  exists [r_ 1 0 0 (-5); r_ 2 0 0 (-4); r_ 3 0 0 (-3); r_ 4 0 0 (-2); r_ 5 0 0 (-1)],
         [CShift 10 false (PIndexed (st_eq 1) ftrue)], [0;0;0;0;0;0;0;0].
  split; [repeat constructor; simpl; intuition discriminate|]. vm_compute. split; [tauto|reflexivity].
Qed.
Print Assumptions C11_claimed_satisfied_criteria_refuted_empty_candidates.

(* The pinned commit: only the residual was re-evaluated under the selection lock. *)
Theorem C11_claimed_satisfied_criteria_refuted_stale_candidates :
  exists rs ps sched, NoDup (map rk rs) /\
    let s := run old_stale sched (init rs ps) in
    In 2%N (bad s) /\ lres (nth 0 (thr s) {| lpc := Done; lres := [] |}) = [(1, 0)]%N.
Proof.
  (* key 1 has status done (1) when the candidates are collected, is patched to pending (0) during
     the yield, and is still claimed *)
  exists [r_ 1 1 0 (-5); r_ 2 0 0 (-4)],
         [CShift 10 false (PIndexed (st_eq 1) ftrue); W (WPatch 1 0)], [0;1;0;0;0].
  split; [repeat constructor; simpl; intuition discriminate|]. vm_compute. split; [tauto|reflexivity].
Qed.
Print Assumptions C11_claimed_satisfied_criteria_refuted_stale_candidates.

(* The pinned commit: PatchExpired re-saved and re-indexed a concurrently deleted record. *)
Theorem C11_no_resurrection_refuted_unchecked_reindex :
  exists rs ps sched, NoDup (map rk rs) /\
    let s := run old_reidx sched (init rs ps) in
    In 4%N (bad s) /\ alive_k 1 (recs s) = true /\ In 1%N (slice s).
Proof.
  (* PatchExpired selects key 1, a writer deletes it, the patch re-saves it (4), it is alive again
     and back in the index *)
  exists [r_ 1 0 0 (-5); r_ 2 0 0 7],
         [CPatch 1 None 2 None; W (WDel 1)], [0;0;1;0;0;0].
  split; [repeat constructor; simpl; intuition discriminate|]. vm_compute. split; [tauto|split; [reflexivity|tauto]].
Qed.
Print Assumptions C11_no_resurrection_refuted_unchecked_reindex.
