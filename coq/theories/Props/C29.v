(* Props/C29.v — Fast swamp-name discovery agrees with the stored name.
   Property theorems; what they rest on is proved in Storage/SwampNameProofs.v and C29Proofs.v.
   Models: Storage/SwampName.v (ReadSwampName, explorer scanFile /
   scanDirectory / index) on top of the C01 storage models. *)
From HV Require Import Base.Prelude Storage.Format Storage.FormatProofs Storage.Lww Storage.LwwProofs
  Storage.Writer Storage.WriterProofs Storage.Reader Storage.ReaderProofs Storage.ReplayProofs
  Storage.SwampName Storage.SwampNameProofs Storage.C29Proofs.
Local Open Scope N_scope.

(* A file created by the writer under name nm (a fresh swamp file, or the temp file of ANY
   compaction - which is how legacy files are upgraded) and then subjected to any further
   operations, in any number of sessions, whatever their results: it is a V3 file,
   ReadSwampName returns nm, and the explorer's lookup returns nm when nm is not empty. *)
Theorem C29_name_roundtrip :
  forall (compress : list N -> list N) (decompress : list N -> option (list N)) (crc : list N -> N),
  (forall x, decompress (compress x) = Some x) ->
  forall hm nm (ops : list (wop (list N) (list N) (list N))) st' rs f,
  brun compress true init (OOpen nm :: ops) = (st', ROk :: rs) -> s_file st' = Some f ->
  f_ver f = Version3 /\ read_swamp_name decompress crc (render compress crc hm f) = Some nm /\
  (nm <> [] -> scan_name decompress crc (render compress crc hm f) = Some nm).
Proof. exact name_roundtrip. Qed.
Print Assumptions C29_name_roundtrip.

(* Legacy V2 file (name in a metadata entry) appended to by the current writer: any history,
   any results - both lookups keep returning the legacy name and the file stays V2. *)
Theorem C29_legacy_appends_keep_name :
  forall (compress : list N -> list N) (decompress : list N -> option (list N)) (crc : list N -> N),
  (forall x, decompress (compress x) = Some x) ->
  forall hm f0 (ops : list (wop (list N) (list N) (list N))) st' rs f nm,
  f_ver f0 = Version2 -> wf_file (list N) (list N) (list N) nlen nlen (Reader.cfits compress) f0 -> nm <> [] ->
  meta_name (entries_of f0) = nm -> scan_meta (entries_of f0) = nm ->
  brun compress true (mkS (Some f0) None) ops = (st', rs) -> s_file st' = Some f ->
  f_ver f = Version2 /\ read_swamp_name decompress crc (render compress crc hm f) = Some nm /\
  scan_name decompress crc (render compress crc hm f) = Some nm.
Proof. exact v2_appends_keep_name. Qed.
Print Assumptions C29_legacy_appends_keep_name.

(* a name of 65536+ bytes never produces a file (repaired writer) *)
Theorem C29_long_name_rejected :
  forall (compress : list N -> list N) nm st' rs,
  two16 <= nlen nm -> brun compress true init [OOpen nm] = (st', rs) -> s_file st' = None /\ rs = [RErr].
Proof.
  intros compress nm st' rs H. unfold brun. cbn [run].
  rewrite open_long_name_rejected by now apply name_long. now intros [= <- <-].
Qed.
Print Assumptions C29_long_name_rejected.

(* pinned writer: a file created under a 65536-byte name answers the empty name *)
Theorem C29_long_name_refuted_pinned :
  match final_bytes false long_name_ops with
  | Some b => read_swamp_name idd crc0 b
  | None => None
  end = Some [].
Proof.
  unfold long_name_ops. rewrite old_writer_name_file, (read_swamp_name_v3_any idc) by reflexivity.
  cbn [f_name]. now rewrite nlen_bytes_n.
Qed.
Print Assumptions C29_long_name_refuted_pinned.

(* the explorer entry of a file whose name has three parts: exactly those parts *)
Theorem C29_scan_three_parts :
  forall (compress : list N -> list N) (decompress : list N -> option (list N)) (crc : list N -> N)
         hm f s r w,
  ver_ok f -> wf_file (list N) (list N) (list N) nlen nlen (Reader.cfits compress) f ->
  slash_free s -> slash_free r ->
  scan_name decompress crc (render compress crc hm f) = Some (s ++ slash :: r ++ slash :: w) ->
  scan_file decompress crc (render compress crc hm f) = Some (s, r, w).
Proof.
  intros compress decompress crc hm f s r w _ _ Hs Hr Hn. unfold scan_file. rewrite Hn.
  destruct (s ++ slash :: r ++ slash :: w) as [|b l] eqn:E; [destruct s; discriminate|].
  rewrite <- E. now apply split3_parts.
Qed.
Print Assumptions C29_scan_three_parts.

(* the listing is exactly the set of names of the scannable files, each once *)
Theorem C29_listing_exact :
  forall (decompress : list N -> option (list N)) (crc : list N -> N) files t,
  (In t (scan_directory decompress crc files) <->
     exists f, In f files /\ scan_file decompress crc f = Some t) /\
  NoDup (scan_directory decompress crc files).
Proof. exact listing_exact. Qed.
Print Assumptions C29_listing_exact.

(* the same explorer used again: after any earlier scans of any earlier directory contents the
   listing is exactly what is on disk at the last scan (nothing stale, nothing missing) *)
Theorem C29_rescan_exact :
  forall (decompress : list N -> option (list N)) (crc : list N -> N) history files t,
  (In t (explorer_run decompress crc (history ++ [files])) <->
     exists f, In f files /\ scan_file decompress crc f = Some t) /\
  NoDup (explorer_run decompress crc (history ++ [files])).
Proof.
  intros decompress crc history files t. unfold explorer_run. rewrite fold_left_app.
  apply listing_exact.
Qed.
Print Assumptions C29_rescan_exact.

(* chronicler Load self-heal (a compaction entry point of its own): a chronicler created without
   a name, or with the file's name, rewrites the file as V3 under the name the old file carried *)
Theorem C29_load_selfheal_keeps_name :
  forall (compress : list N -> list N) (decompress : list N -> option (list N)) (crc : list N -> N),
  (forall x, decompress (compress x) = Some x) ->
  forall hm cname fname live st' rs f,
  cname = [] \/ cname = fname ->
  brun compress true init (selfheal_ops cname fname live) = (st', ROk :: rs) -> s_file st' = Some f ->
  f_ver f = Version3 /\ read_swamp_name decompress crc (render compress crc hm f) = Some fname /\
  (fname <> [] -> scan_name decompress crc (render compress crc hm f) = Some fname).
Proof.
  intros compress decompress crc Hrt hm cname fname live st' rs f Hc. unfold selfheal_ops.
  replace (adopt_name cname fname) with fname by (destruct Hc as [-> | ->]; [|destruct fname]; reflexivity).
  now apply name_roundtrip.
Qed.
Print Assumptions C29_load_selfheal_keeps_name.

(* paged listing: consecutive pages of any size tile the listing (nothing skipped, nothing shown
   twice), and pages that together reach the length of the listing give back exactly the whole *)
Theorem C29_pages_tile_the_listing :
  forall (A : Type) (n off lim : nat) (l : list A),
  skipn off l = pages n off lim l ++ skipn (off + n * lim) l.
Proof. exact @pages_tile. Qed.
Print Assumptions C29_pages_tile_the_listing.

Theorem C29_pages_cover_the_listing :
  forall (A : Type) (n lim : nat) (l : list A),
  (length l <= n * lim)%nat -> pages n 0 lim l = l.
Proof.
  intros A n lim l H. pose proof (pages_tile n 0 lim l) as T. cbn [skipn plus] in T.
  rewrite (skipn_all2 l) in T by exact H. now rewrite app_nil_r in T.
Qed.
Print Assumptions C29_pages_cover_the_listing.
