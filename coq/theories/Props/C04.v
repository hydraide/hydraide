(* Props/C04.v — Corrupt storage files are detected, never misread or crash the server.
   Property theorems; what they rest on is proved in Storage/C04ReaderProofs.v. The model
   (Storage/C04Reader.v with Storage/Crc32.v and Storage/Snappy.v) is byte-exact and is tied to chronicler/v2 {reader,block,types}.go by the
   C04 correspondence check: the real reader and the model must agree on every generated file,
   including garbage. [policy] = how an incomplete tail is classified (observed from the code)
   and which code version is modelled (p_bound_first/p_sn_bound = true: with the fixes 35314f1 and 70d855e). *)
From HV Require Import Base.Prelude Storage.Crc32 Storage.Snappy Storage.C04Reader Storage.C04ReaderProofs.
Local Open Scope N_scope.

(* For EVERY list of numbers presented as a file, under every tail policy and both code
   versions: loading (NewFileReader+LoadIndex), ScanBlockHeaders, ReadSwampName,
   CalculateFragmentation and ReadAllBlocks end with a
   result or an error - never OutOfFuel (the block loop is given |b|/16 + 2 iterations: it
   consumes at least 16 bytes per iteration, the model-level "never hangs") and never Panic
   (every slice expression and index of the Go code, modelled with checked slicing, is guarded:
   the model-level "never panics"). *)
Theorem C04_total : forall pol b,
  good (fst (read_file_bytes pol b)) /\ good (scan_block_headers b) /\ good (read_swamp_name pol b) /\
  good (calc_fragmentation pol b) /\ good (read_all_blocks pol b).
Proof.
  intros pol b.
  exact (conj (read_file_total pol b) (conj (scan_total b) (conj (read_swamp_name_total pol b)
        (conj (calc_fragmentation_total pol b) (read_all_blocks_total pol b))))).
Qed.
Print Assumptions C04_total.

(* The Snappy decoder model itself never indexes out of range nor needs more than
   |input|+1 iterations. *)
Theorem C04_snappy_total : forall src, sn_good (snappy_decode src).
Proof. exact snappy_decode_good. Qed.
Print Assumptions C04_snappy_total.

(* Repaired code: every allocation request made while loading ANY byte string b is at most
   65535 (a uint16 field: name length, entry-table capacity) or at most 22 x |b|. *)
Theorem C04_alloc_bounded : forall pol b,
  p_bound_first pol = true -> p_sn_bound pol = true -> is_bytes b ->
  Forall (fun a => alloc_ok (lenN b) a = true) (snd (read_file_bytes pol b)).
Proof. intros pol b. exact (read_file_fuel_allocs pol (blocks_fuel b) b). Qed.
Print Assumptions C04_alloc_bounded.

(* The code before fix 35314f1: an 80-byte file makes the reader request 0xFFFFFFF0 bytes and is
   then accepted as an empty swamp; the repaired code requests 64 + 16 bytes. Replayed on the
   real code by the harness (witness cases 0 and 2). *)
Theorem C04_alloc_bounded_refuted_without_size_bound :
  lenN witness_forged_csize = 80 /\ is_bytes witness_forged_csize /\
  read_file_bytes old_policy witness_forged_csize = (Ok ([], []), [ABuf 64; ABuf 16; ABuf 4294967280]) /\
  snd (read_file_bytes fixed_policy witness_forged_csize) = [ABuf 64; ABuf 16].
Proof.
  split; [vm_compute; reflexivity|]. split; [apply is_bytes_forallb; vm_compute; reflexivity|].
  split; vm_compute; reflexivity.
Qed.
Print Assumptions C04_alloc_bounded_refuted_without_size_bound.

(* The code before fix 70d855e: an 87-byte file whose 7-byte block has a consistent CRC makes
   snappy.Decode request 0xFFFFFFFF bytes (harness witness cases 1 and 3). *)
Theorem C04_alloc_bounded_refuted_without_preamble_bound :
  lenN witness_forged_preamble = 87 /\
  read_file_bytes old_policy witness_forged_preamble = (Err ECorrupt, [ABuf 64; ABuf 16; ABuf 7; ABuf 4294967295]) /\
  read_file_bytes fixed_policy witness_forged_preamble = (Err ECorrupt, [ABuf 64; ABuf 16; ABuf 7]).
Proof. split; [vm_compute; reflexivity|]. split; vm_compute; reflexivity. Qed.
Print Assumptions C04_alloc_bounded_refuted_without_preamble_bound.

(* Whenever loading returns an index: the header stage accepted the file, the block area is a
   sequence of blocks each of which checks out (complete payload, CRC-32 over the compressed
   bytes equal to the header's checksum, Snappy decoding succeeds with the declared length,
   EntryCount entries parse) followed only by a tail too short to hold a block, and the index
   is exactly the last-writer-wins fold over those blocks' entries. (A 32-bit checksum cannot
   exclude a forged or colliding block; "checked" is what the format can promise.) *)
Theorem C04_accepted_blocks_are_checked : forall pol b idx name,
  fst (read_file_bytes pol b) = Ok (idx, name) ->
  exists op blocks tail,
    fst (new_file_reader b) = Ok op /\
    skipN (data_start_offset (o_hdr op)) b = concat (map cb_bytes blocks) ++ tail /\
    Forall block_checked blocks /\
    incomplete_tail tail /\
    (idx, name) = apply_entries (o_name op) (concat (map cb_entries blocks)).
Proof.
  intros pol b idx name H.
  destruct (read_file_ok_inv _ _ _ H) as (op & blocks & tail & E & R1 & R2 & R4 & R5).
  exists op, blocks, tail. repeat split; try assumption. revert R2. apply Forall_impl, accepted_checked.
Qed.
Print Assumptions C04_accepted_blocks_are_checked.

(* Truncation: if the reader accepts f, then for EVERY n reading the first n bytes of f either
   reports io.EOF/io.ErrUnexpectedEOF (EShort) or yields exactly the index of the first k blocks
   of f for some k - a cut is detected or gives a block-boundary prefix, never other records.
   ([block_accepted pol] = the block passes ParseBlock; by accepted_checked such a block is
   checked.) Holds for every tail policy, i.e. with or without torn-tail tolerance. *)
Theorem C04_truncation_detected_or_prefix : forall pol f res,
  fst (read_file_bytes pol f) = Ok res ->
  exists op blocks tail,
    fst (new_file_reader f) = Ok op /\
    skipN (data_start_offset (o_hdr op)) f = concat (map cb_bytes blocks) ++ tail /\
    Forall (block_accepted pol) blocks /\ incomplete_tail tail /\
    res = apply_entries (o_name op) (concat (map cb_entries blocks)) /\
    forall n,
      fst (read_file_bytes pol (firstn n f)) = Err EShort \/
      exists k, fst (read_file_bytes pol (firstn n f)) =
                Ok (apply_entries (o_name op) (concat (map cb_entries (firstn k blocks)))).
Proof.
  intros pol f res H.
  destruct (read_file_ok_inv _ _ _ H) as (op & blocks & tail & NF & R1 & R2 & R4 & R5).
  exists op, blocks, tail. repeat (split; [assumption|]). intros n. exact (read_file_prefix pol f op blocks tail n NF R1 R2 R4).
Qed.
Print Assumptions C04_truncation_detected_or_prefix.
