(* Props/C16.v — Acknowledged writes survive eviction, auto-destroy and shutdown.
   Property theorems; what they rest on is proved in Conc/LifecycleProofs.v and Conc/BufferProofs.v.
   The full statement is FALSE of the faithful model (and of the code): two refutations with
   witnesses that reproduce on the real engine. What is proved: the sequential core of
   Close()/GracefulStop (the flush), for all inputs; and, for the write buffer of one instance, the
   all-schedules theorems below. No all-schedules theorem is proved for the instance lifecycle. *)
From HV Require Import Base.Prelude Conc.Lifecycle Conc.LifecycleProofs.
From HV Require Conc.Buffer Conc.BufferProofs.

(* (i) W1 deletes the last record and decides to auto-destroy while W2 inserts: W2's write is
   acknowledged, Destroy drains W2's vigil and removes the file. Both write modes. *)
Theorem C16_ack_survives_refuted_autodestroy : forall wi0,
  survives (run wi0 1 (init (progs_of w_i_progs)) w_i) = false.
Proof. intros [|]; vm_compute; reflexivity. Qed.
Print Assumptions C16_ack_survives_refuted_autodestroy.

(* (ii) the idle listener closes with a lastInteractionTime read before the request's summon;
   the request saves into the closed instance. Lost with a write interval > 0. *)
Theorem C16_ack_survives_refuted_idle_close :
  survives (run false 1 (init (progs_of w_ii_progs)) w_ii) = false.
Proof. vm_compute. reflexivity. Qed.
Print Assumptions C16_ack_survives_refuted_idle_close.

(* For every write buffer and every file content: after the flush of Close()/GracefulStop every
   key whose last buffered operation is a write is durable, and keys not in the buffer are
   unchanged. *)
Theorem C16_flush_last_write_durable : forall pend dsk k,
  last_op k pend None = Some true -> mem_nat k (flush dsk pend) = true.
Proof. intros pend dsk k H. rewrite flush_spec, H. reflexivity. Qed.
Print Assumptions C16_flush_last_write_durable.

Theorem C16_flush_untouched_key : forall pend dsk k,
  last_op k pend None = None -> mem_nat k (flush dsk pend) = mem_nat k dsk.
Proof. intros pend dsk k H. rewrite flush_spec, H. reflexivity. Qed.
Print Assumptions C16_flush_untouched_key.

Theorem C16_close_flush_durable : forall s i k,
  last_op k (pend (insts s i)) None = Some true -> mem_nat k (disk (close_flush s i)) = true.
Proof. intros s i k. apply C16_flush_last_write_durable. Qed.
Print Assumptions C16_close_flush_durable.

(* The theorems from here on are about the write buffer of one instance (Conc/Buffer.v: record
   objects, key-indexed queue, concurrent flushers), for EVERY schedule of any number of writers, deleters and flushers [ts]
   in which no key is re-created while an unwritten batch still holds its old record object
   ([no_recreate]). The model is tied to SaveFunction/deleteHandler/fileWriterHandler by trace acceptance of
   forced flush-window schedules. *)

(* Whenever nothing is queued and no collected batch is unwritten, the chronicler holds the
   current value of every key that has a record. *)
Theorem C16_buffer_quiescent_durable : forall progs ts sched k v,
  let s := Buffer.run false (Buffer.init progs) sched in
  Buffer.no_recreate (Buffer.init progs) ts sched = true ->
  Buffer.queue s = [] -> (forall t, Buffer.batch (Buffer.pcs s t) = []) ->
  Buffer.memval s k = Some v -> Buffer.disk s k = Some v.
Proof.
  intros progs ts sched k v s Hn. apply (BufferProofs.inv_quiescent ts), BufferProofs.reach_inv, Hn.
Qed.
Print Assumptions C16_buffer_quiescent_durable.

(* In every reachable state a record whose current value the chronicler does not hold yet is
   still queued or in a batch a running flusher is going to write: no acknowledged Save is ever
   dropped from the buffer. *)
Theorem C16_buffer_tracks_unwritten : forall progs ts sched k o,
  let s := Buffer.run false (Buffer.init progs) sched in
  Buffer.no_recreate (Buffer.init progs) ts sched = true ->
  Buffer.cur s k = Some o -> Buffer.disk s k <> Some (Buffer.oval (Buffer.objs s o)) ->
  In o (Buffer.queue s) \/ exists t, In o (Buffer.batch (Buffer.pcs s t)).
Proof.
  intros progs ts sched k o s Hn C Hd.
  pose proof (BufferProofs.reach_inv ts progs sched Hn) as I.
  destruct (BufferProofs.i_main ts _ I k o C) as [A|[A|A]]; [left; exact A|right; exact A|contradiction].
Qed.
Print Assumptions C16_buffer_tracks_unwritten.

(* In every reachable state in which no other flush is in flight, the close-write of
   Close()/GracefulStop run to completion makes every record durable with its current value. *)
Theorem C16_close_write_makes_durable : forall progs ts sched t k v,
  let s := Buffer.run false (Buffer.init progs) sched in
  Buffer.no_recreate (Buffer.init progs) ts sched = true -> In t ts ->
  Buffer.pcs s t = Buffer.FColl -> (forall x, x <> t -> Buffer.batch (Buffer.pcs s x) = []) ->
  let s' := Buffer.run false s (repeat t (3 + length (Buffer.queue s))) in
  Buffer.memval s' k = Some v -> Buffer.disk s' k = Some v.
Proof.
  intros progs ts sched t k v s Hn. apply BufferProofs.close_write_durable, BufferProofs.reach_inv, Hn.
Qed.
Print Assumptions C16_close_write_makes_durable.

(* The hypothesis is needed - refuted for the code as it is: delete + re-create of a key inside a
   flush window brings the old value back, or lets the old object's tombstone delete the key.
   Both reproduce on the real engine (known finding). *)
Theorem C16_buffer_refuted_recreate_old_value :
  let s := Buffer.run false (Buffer.init (Buffer.progs_of Buffer.w_stale_progs)) Buffer.w_stale_value in
  Buffer.memval s 0 = Some 3 /\ Buffer.disk s 0 = Some 1 /\ Buffer.queue s = [] /\
  forallb (fun t => match Buffer.batch (Buffer.pcs s t) with [] => true | _ => false end) [0;1;2;3] = true /\
  Buffer.no_recreate (Buffer.init (Buffer.progs_of Buffer.w_stale_progs)) [0;1;2;3] Buffer.w_stale_value = false.
Proof. vm_compute. auto. Qed.
Print Assumptions C16_buffer_refuted_recreate_old_value.

Theorem C16_buffer_refuted_recreate_tombstone :
  let s := Buffer.run false (Buffer.init (Buffer.progs_of Buffer.w_stale_tomb_progs)) Buffer.w_stale_tomb in
  Buffer.memval s 0 = Some 3 /\ Buffer.disk s 0 = None /\ Buffer.queue s = [] /\
  forallb (fun t => match Buffer.batch (Buffer.pcs s t) with [] => true | _ => false end) [0;1;2;3;4] = true /\
  Buffer.no_recreate (Buffer.init (Buffer.progs_of Buffer.w_stale_tomb_progs)) [0;1;2;3;4] Buffer.w_stale_tomb = false.
Proof. vm_compute. auto. Qed.
Print Assumptions C16_buffer_refuted_recreate_tombstone.

(* Dequeuing the batch only after it was written (instead of before) loses an update that is
   acknowledged while the batch is being written. *)
Theorem C16_late_dequeue_refuted :
  let s := Buffer.run true (Buffer.init (Buffer.progs_of Buffer.w_late_progs)) Buffer.w_late in
  Buffer.memval s 0 = Some 2 /\ Buffer.disk s 0 = Some 1 /\ Buffer.queue s = [] /\
  forallb (fun t => match Buffer.batch (Buffer.pcs s t) with [] => true | _ => false end) [0;1;2;3] = true.
Proof. vm_compute. auto. Qed.
Print Assumptions C16_late_dequeue_refuted.
