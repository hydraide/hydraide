(* Props/C08.v — accelerated and full-scan query routes agree.
   Models: Query/Canon.v, Filter.v, Planner.v, Routes.v (the repaired gateway). *)
From HV Require Import Base.Prelude Query.Canon Query.Filter Query.Planner Query.Routes
     Query.FilterProofs Query.PlannerProofs Query.RoutesProofs.
From Coq Require Import Permutation Sorted.
Open Scope string_scope.
Open Scope list_scope.
Open Scope Z_scope.

(* one canonical equality rule: the scan of an indexable leg is the bucket lookup *)
Theorem C08_leg_semantics_agree : forall r l h,
  indexable_hint l = Some h -> not_raw r -> scan_leg r l = matches_hint r h.
Proof. exact leg_semantics_agree. Qed.
Print Assumptions C08_leg_semantics_agree.

Theorem C08_leg_semantics_agree_refuted_float_truncation :
  exists r l h, indexable_hint l = Some h /\ not_raw r /\
                scan_leg_legacy r l = true /\ matches_hint r h = false.
Proof.   (* float64 5.7 against int64 5: the legacy scan truncates and matches *)
  exists (mkRec "k" 0 0 0 (BMap true [("a", VFloat 4618103647896390861)])),
         (mkLeg OpEq (CInt 64 5) "a" "" [] []), (HEq "a" (KInt 5)).
  vm_compute. repeat split.
Qed.
Print Assumptions C08_leg_semantics_agree_refuted_float_truncation.

Theorem C08_leg_semantics_agree_refuted_uint64_above_2_63 :
  exists r l h, indexable_hint l = Some h /\ not_raw r /\
                scan_leg_legacy r l = true /\ matches_hint r h = false.
Proof.   (* uint64 2^63+1 against float64 2^63: float64(n) rounds to 2^63 *)
  exists (mkRec "k" 0 0 0 (BMap true [("a", VUint 9223372036854775809)])),
         (mkLeg OpEq (CFloat 64 4890909195324358656) "a" "" [] []), (HEq "a" (KFloat 4890909195324358656)).
  vm_compute. repeat split.
Qed.
Print Assumptions C08_leg_semantics_agree_refuted_uint64_above_2_63.

Theorem C08_leg_semantics_agree_refuted_wildcard_path :
  exists r l h, indexable_hint_legacy l = Some h /\ not_raw r /\
                scan_leg r l = true /\ matches_hint r h = false.
Proof.   (* the scan matches through the wildcard, the bucket looks up the literal key *)
  exists (mkRec "k" 0 0 0 (BMap true [("t", VArr [VStr "x"])])),
         (mkLeg OpEq (CStr "x") "t[*]" "" [] []), (HEq "t[*]" (KStr "x")).
  vm_compute. repeat split.
Qed.
Print Assumptions C08_leg_semantics_agree_refuted_wildcard_path.

Theorem C08_leg_semantics_agree_refuted_len_path :
  exists r l h, indexable_hint_legacy l = Some h /\ not_raw r /\
                scan_leg r l = true /\ matches_hint r h = false.
Proof.   (* the scan compares the array length, the bucket looks up the literal key *)
  exists (mkRec "k" 0 0 0 (BMap true [("t", VArr [VInt 1; VInt 2])])),
         (mkLeg OpEq (CInt 64 2) "t.#len" "" [] []), (HEq "t.#len" (KInt 2)).
  vm_compute. repeat split.
Qed.
Print Assumptions C08_leg_semantics_agree_refuted_len_path.

Theorem C08_leg_semantics_agree_refuted_raw_body :
  exists r l h, indexable_hint l = Some h /\ scan_leg r l = false /\ matches_hint r h = true.
Proof.   (* without the magic prefix the scan does not look into the body, the bucket does *)
  exists (mkRec "k" 0 0 0 (BMap false [("a", VInt 1)])), (mkLeg OpEq (CInt 64 1) "a" "" [] []),
         (HEq "a" (KInt 1)).
  vm_compute. repeat split.
Qed.
Print Assumptions C08_leg_semantics_agree_refuted_raw_body.

(* match decision and labels are recovered from hints + residual *)
Theorem C08_planner_sound_and : forall g hs resid r,
  plan_filter g = PAnd hs resid -> not_raw r ->
  eval_group scan_leg r g = matches_hints r hs && eval_group scan_leg r resid
  /\ (eval_group scan_leg r g = true -> glabels scan_leg r resid = glabels scan_leg r g).
Proof. intros g hs resid r H Hr. destruct (planner_sound_and g hs resid r H Hr). auto. Qed.
Print Assumptions C08_planner_sound_and.

Theorem C08_planner_sound_or : forall g hs resid r,
  plan_filter g = POrUnion hs resid -> not_raw r ->
  eval_group scan_leg r g = matches_hints r hs
  /\ match resid with
     | Some g' => g' = g
     | None => glabels scan_leg r g = []
     end.
Proof. exact planner_sound_or. Qed.
Print Assumptions C08_planner_sound_or.

Theorem C08_planner_sound_refuted_label_dropped :
  exists g r hs resid, plan_filter_legacy g = PAnd hs resid /\ not_raw r /\
    eval_group scan_leg r g = true /\ glabels scan_leg r resid <> glabels scan_leg r g.
Proof.
  exists (Grp false [mkLeg OpEq (CInt 64 1) "a" "L1" [] []] [] []),
         (mkRec "k" 0 0 0 (BMap true [("a", VInt 1)])).
  do 2 eexists. split; [vm_compute; reflexivity|]. vm_compute. repeat split. discriminate.
Qed.
Print Assumptions C08_planner_sound_refuted_label_dropped.

(* paged requests and bypassed filters give identical outputs ... *)
Theorem C08_routes_agree_partial_exact : forall contents ord srt q,
  NoDup (map rkey contents) -> all_not_raw contents -> incl ord contents ->
  paged q = true \/ plan_filter (qfilter q) = PBypass ->
  accel_route scan_leg contents ord srt q = scan_route scan_leg ord q (wrap (qfilter q)).
Proof.
  intros contents ord srt q Hnd Hraw Hincl Hcase. rewrite scan_wrap.
  destruct (plan_filter (qfilter q)) eqn:Ep; [unfold accel_route; rewrite Ep; reflexivity|..].
  (* PAnd, POrUnion: not bypassed, hence paged *)
  all: destruct Hcase as [Hpg|Hb]; [|discriminate]; apply exact_paged; auto; rewrite Ep; discriminate.
Qed.
Print Assumptions C08_routes_agree_partial_exact.

(* ... and unpaged bucket-routed requests return the same records with the same labels, each
   output sorted on the index attribute (any tie order), cut by the same MaxResults *)
Theorem C08_routes_agree_partial_unpaged : forall contents ord srt q,
  all_not_raw contents ->
  Permutation ord (filter (eligible (qidx q)) contents) -> StronglySorted (sortedR q) ord ->
  Permutation srt (bucket_unsorted contents q (hints_of (plan_filter (qfilter q)))) ->
  StronglySorted (sortedR q) srt ->
  paged q = false -> plan_filter (qfilter q) <> PBypass ->
  exists S B,
    scan_route scan_leg ord q (wrap (qfilter q)) = take_max (qmax q) (map (rowf (qfilter q)) S)
    /\ accel_route scan_leg contents ord srt q = take_max (qmax q) (map (rowf (qfilter q)) B)
    /\ Permutation S B /\ StronglySorted (sortedR q) S /\ StronglySorted (sortedR q) B.
Proof. intros contents ord srt q. apply routes_agree_unpaged. Qed.
Print Assumptions C08_routes_agree_partial_unpaged.

(* the missing hypothesis of the full statement: no msgpack body without the magic prefix *)
Theorem C08_routes_agree_refuted_raw_body :
  exists contents ord srt q,
    NoDup (map rkey contents) /\ incl ord contents /\
    accel_route scan_leg contents ord srt q <> scan_route scan_leg ord q (wrap (qfilter q)).
Proof. exact RoutesProofs.C08_routes_agree_refuted_raw_body. Qed.
Print Assumptions C08_routes_agree_refuted_raw_body.

(* the unrepaired bucket route paged after the indexed restriction *)
Theorem C08_routes_agree_refuted_legacy_paging :
  exists contents ord srt q hs resid,
    plan_filter_legacy (qfilter q) = PAnd hs resid /\
    Permutation srt (candidates contents hs) /\
    accel_route_legacy contents srt q hs (Some resid) <> scan_route scan_leg ord q (wrap (qfilter q)).
Proof. exact RoutesProofs.C08_routes_agree_refuted_legacy_paging. Qed.
Print Assumptions C08_routes_agree_refuted_legacy_paging.

(* incremental maintenance of the bucket around an in-flight build equals a fresh build *)
Theorem C08_bucket_inv : forall (c0 : bstate) (p1 p2 p3 : list bop) (k : string),
  let snapshot := bapply_all c0 p1 in
  let bucket := bapply_all (bapply_all snapshot (p1 ++ p2)) p3 in
  let fresh := bapply_all c0 (p1 ++ p2 ++ p3) in
  bucket k = fresh k.
Proof. exact bucket_inv. Qed.
Print Assumptions C08_bucket_inv.
