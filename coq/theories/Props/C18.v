(* Props/C18.v — At most one live in-memory instance per swamp.
   Property theorems; what they rest on is proved in Conc/SummonProofs.v.
   The model ([Conc/Summon.v], fixed = true = the slot accounting after the fix: commit) is tied
   to hydra.go:SummonSwamp and swamp.go:Close/Destroy by the C18 correspondence check (forced
   schedules through the hook points, trace acceptance, stress). *)
From HV Require Import Base.Prelude Conc.Summon Conc.SummonProofs.

(* For any number of threads (summoners, Close(i), Destroy(i), context cancellations) and every
   schedule in which no Destroy() teardown starts on an instance whose Close() already started:
   at most one constructed-and-not-cancelled instance exists. *)
Theorem C18_single_instance : forall progs sched,
  no_late_destroy true (init progs) sched = true ->
  forall i j, live (run true (init progs) sched) i -> live (run true (init progs) sched) j -> i = j.
Proof. intros progs sched H. exact (inv_single _ (inv_reach _ _ H)). Qed.
Print Assumptions C18_single_instance.

Theorem C18_live_count_le_1 : forall progs sched,
  no_late_destroy true (init progs) sched = true -> nlive (run true (init progs) sched) <= 1.
Proof. intros progs sched H. exact (inv_nlive _ (inv_reach _ _ H)). Qed.
Print Assumptions C18_live_count_le_1.

(* SummonSwamp hands out (IsClosing() = false at its final check) only the instance that is in
   the map at that moment, and that instance is live. *)
Theorem C18_returns_current : forall progs sched t w i,
  no_late_destroy true (init progs) sched = true ->
  let s := run true (init progs) sched in
  pcs s t = SFound w i -> closing (insts s i) = false -> mapi s = Some i /\ live s i.
Proof. intros progs sched t w i H. exact (inv_returns_current _ t w i (proj2 (inv_reach _ _ H))). Qed.
Print Assumptions C18_returns_current.

(* The summoning section (getSwamp ... createNewSwamp ... Store) is never run by two threads
   (a fact of the slot bookkeeping alone: the hypothesis on closes/destroys is not used). *)
Theorem C18_section_exclusive : forall progs sched t t' w w',
  no_late_destroy true (init progs) sched = true ->
  let s := run true (init progs) sched in
  insec (pcs s t) = Some w -> insec (pcs s t') = Some w' -> t = t' /\ w = w'.
Proof. intros progs sched t t' w w' _. exact (mutex _ t t' w w' (sinv_reach progs sched)). Qed.
Print Assumptions C18_section_exclusive.

(* Slot bookkeeping (no hypothesis on closes/destroys): count = number of registered summoners,
   the map holds exactly the one slot that is not dead, a dead slot has count 0 (no leak, no
   slot dropped under an owner). *)
Theorem C18_slot_accounting : forall progs sched w,
  let s := run true (init progs) sched in
  count (slots s w) = Z.of_nat (length (owners (slots s w))) /\
  (forall t, In t (owners (slots s w)) <-> reg (pcs s t) = Some w) /\
  (cur s = Some w <-> w < nslots s /\ dead (slots s w) = false) /\
  (dead (slots s w) = true -> count (slots s w) = 0%Z).
Proof.
  intros progs sched w s. assert (SI := sinv_reach progs sched : SInv s).
  split; [apply (s_cnt s SI)|]. split; [intro t; apply (s_own s SI)|]. split.
  - split; [apply (s_cur s SI)|intros [A B]; apply (s_alive s SI); assumption].
  - intro D. rewrite (s_cnt s SI), (s_dead s SI w D). reflexivity.
Qed.
Print Assumptions C18_slot_accounting.

(* The hypothesis of C18_single_instance is needed: a Destroy() that starts after a Close() of the
   same instance runs the close callback a second time and removes the successor's map entry. *)
Theorem C18_single_instance_refuted_late_destroy :
  exists progs sched, nlive (run true (init progs) sched) = 2 /\
                      no_late_destroy true (init progs) sched = false.
Proof. exists (progs_of witness_late_progs), witness_late. vm_compute. auto. Qed.
Print Assumptions C18_single_instance_refuted_late_destroy.

(* The slot accounting of the pinned commit violates the property (kept as the reason for the
   fix: commit), and leaks slots with a negative count. *)
Theorem C18_single_instance_refuted_old_accounting :
  exists progs sched, nlive (run false (init progs) sched) = 2.
Proof. exists (progs_of witness_progs), witness_old. vm_compute. reflexivity. Qed.
Print Assumptions C18_single_instance_refuted_old_accounting.

Theorem C18_slot_leak_old_accounting :
  exists progs sched, let s := run false (init progs) sched in
    count (slots s 0) = (-2)%Z /\ cur s = Some 0 /\ pcs s 0 = SDone (Some 0) /\ pcs s 1 = SDone (Some 0).
Proof.
  exists (progs_of [PSummon; PSummon]), [0;0;0;0;0;0;0;0;0; 1;1;1;1;1;1;1]. vm_compute. auto.
Qed.
Print Assumptions C18_slot_leak_old_accounting.
