(* Props/C28.v — Lock and guard bookkeeping does not grow without bound.
   Model: Conc/BLock.v with the key -> queue map ([cur]) and the heap of queue objects;
   [prune = true] is lock.go after the fix: commit (remove() retires an emptied queue and drops
   its map entry under q.mu, enqueue() refuses a retired queue), [prune = false] the pinned commit.
   Mutual exclusion and FIFO of the pruning variant are C14_mutex / C14_fifo (proved for both). *)
From HV Require Import Base.Prelude Conc.BLock Conc.BLockProofs.

(* A key has a map entry only while a caller is queued on it (holding or waiting) or is between
   getQueue and enqueue. Any number of callers, any trace. *)
Theorem C28_no_residue : forall n acts s, run true (init n) acts = Some s ->
  has_entry s = true -> in_use s = true.
Proof. intros n acts s R. exact (lock_no_residue s (reach_inv_pruned _ _ _ R)). Qed.
Print Assumptions C28_no_residue.

(* The whole lock: number of map entries <= number of keys currently locked, waited on or being
   entered - not the number of distinct keys ever locked. *)
Theorem C28_map_size_bounded : forall ns acts g,
  grun true (map init ns) acts = Some g -> map_size g <= keys_in_use g.
Proof.
  intros ns acts g R. apply map_size_inv_pruned, (grun_invariant true Inv_pruned inv_pruned_step acts (map init ns)); [|assumption].
  apply Forall_map, Forall_forall. intros n _. apply inv_pruned_init.
Qed.
Print Assumptions C28_map_size_bounded.

(* The pinned commit: Lock k; Unlock k leaves the entry behind ... *)
Theorem C28_no_residue_refuted_without_pruning :
  exists s, run false (init 1) [AStep 0; AStep 0; AStep 0; ARemove 0 0] = Some s /\
            has_entry s = true /\ in_use s = false.
Proof. eexists. split; [vm_compute; reflexivity|]. split; reflexivity. Qed.
Print Assumptions C28_no_residue_refuted_without_pruning.

(* ... and no step on a key removes its entry (one step here; along any run:
   [entry_kept_unpruned]), so the map keeps an entry for every key that was ever locked. *)
Theorem C28_growth_without_pruning : forall s a s', step false s a = Some s' ->
  has_entry s = true -> has_entry s' = true.
Proof. intros s a s' E. apply (entry_kept_unpruned [a]). simpl. rewrite E. reflexivity. Qed.
Print Assumptions C28_growth_without_pruning.
