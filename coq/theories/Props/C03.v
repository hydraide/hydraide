(* Props/C03.v — Compaction never changes the stored state.
   Model: Storage/C03Compact.v (entry-level files, interned keys/payloads/names; iteration order,
   trigger decisions and flush boundaries are universally quantified oracles), tied to
   compactor.go / chronicler_v2.go / hydraidectl compact by harness/cmd/c03. *)
From HV Require Import Base.Prelude Storage.C03Compact Storage.C03CompactProofs.
Local Open Scope N_scope.

(* A compacted file written from scratch loads to the same live records and carries the name in
   its header, for every iteration order that visits every live key. *)
Theorem C03_compact_preserves_index : forall ix nm perm,
  covers perm ix ->
  st_equiv (load_entries nm (compact_entries ix perm)) (ix, nm).
Proof. exact compact_preserves_index. Qed.
Print Assumptions C03_compact_preserves_index.

(* Every entry point (Write-inline, Close, ForceCompaction, Load self-heal, hydraidectl compact),
   every pre-existing node at the temp path (absent, valid older file, foreign file, torn file,
   garbage, unremovable directory), every trigger decision, every iteration order: the live
   records after the call are the ones before plus the written batch; the stored name is kept
   (Load's self-heal writes the chronicler's configured name if it has one). *)
Theorem C03_any_entry_point_preserves : forall c e h es,
  hyd (c_fs c) = Some (FGood h es) ->
  let before := load_entries h es in
  let expect := (spec_apply (fst before) (ep_batch e), snd before) in
  covers (ep_perm e) (fst expect) ->
  exists st', state_of (c_fs (step true c e)) = Some st' /\
    (forall k, ilookup k (fst st') = ilookup k (fst expect)) /\
    (snd st' = snd expect \/ (is_load e = true /\ c_name c <> 0 /\ snd st' = c_name c)).
Proof.
  intros c e h es Hh. apply (step_preserves c e (load_entries h es)).
  unfold state_of. rewrite Hh. reflexivity.
Qed.
Print Assumptions C03_any_entry_point_preserves.

(* Concurrent use: every chronicler method runs under the chronicler's mutex, so an execution with
   concurrent callers is some sequence of the atomic steps above. For every such sequence (any mix
   of Write batches and compaction entry points, any trigger decisions, any stale temps) the final
   state is the initial one plus all written batches in lock order ... *)
Theorem C03_any_interleaving_preserves : forall es c st,
  state_of (c_fs c) = Some st -> steps_cover c es ->
  exists st', state_of (c_fs (run_steps c es)) = Some st' /\
    forall k, ilookup k (fst st') = ilookup k (spec_apply (fst st) (flat_map ep_batch es)).
Proof.
  intros es c st Hs Hc. destruct (run_preserves es c st Hs Hc) as [st' [H1 [H2 _]]]. eauto.
Qed.
Print Assumptions C03_any_interleaving_preserves.

(* ... and that state depends, per key, only on the subsequence of writes to that key: writers that
   own disjoint key sets get the same result under every interleaving (this is what the harness's
   concurrent cases compare against). *)
Theorem C03_write_order_per_key : forall k l ix,
  ilookup k (spec_apply ix l) = ilookup k (spec_apply ix (filter (fun w : wr => fst w =? k) l)).
Proof. exact spec_apply_lookup_filter. Qed.
Print Assumptions C03_write_order_per_key.

(* inline trigger: whatever maybeCompactInline and the compactor's own threshold decide *)
Theorem C03_inline_trigger_sound : forall c batch go1 go2 perm h es,
  hyd (c_fs c) = Some (FGood h es) ->
  covers perm (spec_apply (fst (load_entries h es)) batch) ->
  exists st', state_of (c_fs (step true c (EWrite batch go1 go2 perm))) = Some st' /\
    (forall k, ilookup k (fst st') = ilookup k (spec_apply (fst (load_entries h es)) batch)) /\
    snd st' = snd (load_entries h es).
Proof.
  intros c batch go1 go2 perm h es Hh Hc.
  destruct (C03_any_entry_point_preserves c (EWrite batch go1 go2 perm) h es Hh Hc)
    as [st' [H1 [H2 [H3|[H3 _]]]]]; [eauto | discriminate ].
Qed.
Print Assumptions C03_inline_trigger_sound.

(* documentation of the inline trigger's hysteresis *)
Theorem C03_trigger_monotone : forall enabled has_fn total live min_entries frag_gt,
  may_compact_inline enabled has_fn total live min_entries frag_gt = true ->
  (min_entries <= total /\ 2 * live <= total /\ live < total /\ frag_gt = true)%Z.
Proof. exact trigger_monotone. Qed.
Print Assumptions C03_trigger_monotone.

(* Crash at any point of the compaction op sequence (remove stale temp, create, block appends
   with header rewrites, fsync, close, rename), any crash image allowed by the crash semantics,
   any stale temp: after Load's temp cleanup the .hyd is the complete old or the complete new
   file and loads to the old state. *)
Theorem C03_crash_atomic : forall h es perm blocks done rest img,
  let old := FGood h es in
  let st := load_entries h es in
  covers perm (fst st) ->
  concat blocks = compact_entries (fst st) perm ->
  compact_ops (snd st) blocks = done ++ rest ->
  crash_image old done img ->
  let img' := FS (hyd img) (cleanup_tmp (tmp img)) in
  (hyd img' = Some old \/ hyd img' = Some (FGood (snd st) (concat blocks))) /\
  exists st', state_of img' = Some st' /\ st_equiv st' st.
Proof.
  intros h es perm blocks done rest img old st Hc Hb Heq Hci img'. rewrite Hb.
  (* [crash_loads_old] speaks of [img]; [hyd] and [state_of] ignore the temp path, so the goal
     about [img'] converts to it *)
  apply (crash_loads_old old st perm done rest img eq_refl Hc); [|exact Hci].
  rewrite <- Heq, <- Hb. apply compact_ops_safe.
Qed.
Print Assumptions C03_crash_atomic.

(* the same for any op list that passes the check applied to the observed syscall traces *)
Theorem C03_crash_atomic_any_safe_ops : forall old newf ops done rest img,
  safe_ops newf ops = true -> ops = done ++ rest ->
  crash_image old done img ->
  hyd img = Some old \/ hyd img = Some newf.
Proof. intros old newf ops done rest img Hs ->. exact (crash_atomic_of_safe old newf done rest img Hs). Qed.
Print Assumptions C03_crash_atomic_any_safe_ops.

(* The code of the pinned commit (Compactor.Compact appends to an existing temp file) violates
   the property; kept machine-checked as the reason for the fix (2c52416: Compactor.Compact removes
   a leftover .compact temp before creating the writer). *)
Theorem C03_stale_temp_refuted_before_fix :
  exists c perm h es,
    hyd (c_fs c) = Some (FGood h es) /\
    covers perm (fst (load_entries h es)) /\
    exists st', state_of (c_fs (step false c (ECli true perm))) = Some st' /\
      ilookup 2 (fst (load_entries h es)) = None /\ ilookup 2 (fst st') = Some 20 /\
      snd (load_entries h es) = 7 /\ snd st' = 9.
Proof.
  exists ex_chron, [3; 1]. do 2 eexists. split; [reflexivity|]. split; [exact ex_covers|].
  eexists. split; [vm_compute; reflexivity|]. vm_compute. repeat split; reflexivity.
Qed.
Print Assumptions C03_stale_temp_refuted_before_fix.

Theorem C03_torn_stale_temp_refuted_before_fix :
  exists c perm, state_of (c_fs c) <> None /\ state_of (c_fs (step false c (ECli true perm))) = None.
Proof.
  exists (CH (FS (Some ex_file) (Some (NFile (FTorn 7 [])))) 7), [3; 1].
  split; vm_compute; [discriminate | reflexivity].
Qed.
Print Assumptions C03_torn_stale_temp_refuted_before_fix.
