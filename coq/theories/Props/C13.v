(* Props/C13.v — Structural msgpack patch matches its documented semantics.
   The models (Patch/{Msgpack,Path,Ops,Cond}.v, configuration cfg_fixed =
   the repaired code, cfg_orig = the code as found) are tied to msgpackpatch by the C13
   correspondence check (exact output bytes / error class on every generated case, all eight
   ops) and by the table Gen/C13Consts.v printed from the compiled package. *)
From Coq Require Import Floats.SpecFloat.
From HV Require Import Base.Prelude Patch.Msgpack Patch.Path Patch.Float Patch.Ops Patch.Cond
  Patch.DocSpec Patch.MsgpackProofs Patch.OpsProofs Patch.FrameProofs Patch.RefineProofs Patch.MergeProofs Patch.FloatExamples Gen.C13Consts.
Local Open Scope N_scope.

(* All 256 lead bytes: the model's classifiers and what Decoder.Skip consumes on two probe inputs
   equal the table printed from the compiled Go code. *)
Theorem C13_lead_byte_table : forall c, c < 256 ->
  nth_error c13_lead_table (N.to_nat c) = Some (entry c).
Proof. intros c Hc. rewrite <- lead_table_eq. apply map_nth_error, all_bytes_nth, Hc. Qed.
Print Assumptions C13_lead_byte_table.

(* A value that Decoder.Skip consumes completely is one value of the msgpack grammar [WF]. *)
Theorem C13_validated_value_wellformed : forall v, valid_value v = true -> WF v.
Proof. exact valid_value_WF. Qed.
Print Assumptions C13_validated_value_wellformed.

Theorem C13_parse_leaves_wellformed : forall b s, parse b = Ok s -> leaves_wf s.
Proof.
  unfold parse. intros b s H. destruct (parse_node (S (length b)) b) as [[s0 r]|e] eqn:E; [|discriminate].
  destruct r; [|discriminate]. injection H as <-. exact (parse_node_leaves_wf _ _ _ _ E).
Qed.
Print Assumptions C13_parse_leaves_wellformed.

(* A reported success of the repaired code (all eight ops, any condition, any paths, any value
   bytes) is the serialisation of a skeleton with only well-formed leaves; when no container of
   the result has 2^32 or more children and no key 2^32 or more bytes it is exactly one
   well-formed msgpack value. *)
Theorem C13_success_wellformed : forall body ops cd out,
  apply_with_cond cfg_fixed body ops cd = Ok out ->
  exists s', out = serialize s' /\ leaves_wf s' /\ (small s' -> WF out).
Proof.
  intros body ops cd out H. apply apply_with_cond_Ok in H as [s [s' [P [_ [A ->]]]]].
  assert (L : leaves_wf s') by exact (apply_ops_wf cfg_fixed eq_refl _ _ _ (C13_parse_leaves_wellformed _ _ P) A).
  exists s'. split; [reflexivity|]. split; [exact L|].
  intro Sm. apply serialize_WF, skel_ok_intro; assumption.
Qed.
Print Assumptions C13_success_wellformed.

(* The code as found: SET x <0xc1> reports success and the body no longer decodes. *)
Theorem C13_success_wellformed_refuted_without_validation :
  exists body ops out,
    apply_with_cond cfg_orig body ops None = Ok out /\ valid_value body = true /\ valid_value out = false.
Proof.
  exists ex_body, [ex_set [120] [193]], [130; 161; 120; 193; 161; 110; 208; 127].
  vm_compute. repeat split.
Qed.
Print Assumptions C13_success_wellformed_refuted_without_validation.

(* Untouched values keep their exact bytes and relative order: for each of the eight ops (either
   configuration), the sequence of leaf byte strings of the result is that of the input with only
   the segment belonging to the addressed target (empty when the target does not exist) replaced. *)
Theorem C13_untouched_bytes_preserved : forall c s o segs s',
  apply_op c s o segs = Ok s' ->
  exists l1 new l2, leaves s = l1 ++ target_leaves segs s ++ l2 /\ leaves s' = l1 ++ new ++ l2.
Proof. exact untouched_bytes_preserved. Qed.
Print Assumptions C13_untouched_bytes_preserved.

(* A failing patch leaves the stored body unchanged (PatchFields stores only on success). *)
Theorem C13_atomic_on_failure : forall c stored ops cd,
  fst (patch_fields c stored ops cd) <> 0 -> snd (patch_fields c stored ops cd) = stored.
Proof. exact atomic_on_failure. Qed.
Print Assumptions C13_atomic_on_failure.

(* One failing op fails the whole patch, whatever the earlier ops did. *)
Theorem C13_failing_op_fails_patch : forall c body ops1 o ops2 cd s s1 e,
  parse body = Ok s -> apply_ops c s ops1 = Ok s1 -> apply_ops c s1 [o] = Err e ->
  exists e', apply_with_cond c body (ops1 ++ o :: ops2) cd = Err e'.
Proof.
  intros c body ops1 o ops2 cd s s1 e P A1 Ao. unfold apply_with_cond, bind. rewrite P.
  destruct (match cd with Some x => eval_cond c s x | None => Ok tt end); [|eexists; reflexivity].
  change (o :: ops2) with ([o] ++ ops2). rewrite apply_ops_app, A1. cbn [bind]. rewrite apply_ops_app, Ao.
  eexists. reflexivity.
Qed.
Print Assumptions C13_failing_op_fails_patch.

(* An unmet (or failing) condition fails the patch before any op runs. *)
Theorem C13_unmet_condition_fails_patch : forall c body ops cd s e,
  parse body = Ok s -> eval_cond c s cd = Err e -> apply_with_cond c body ops (Some cd) = Err e.
Proof. intros c body ops cd s e P E. unfold apply_with_cond, bind. rewrite P, E. reflexivity. Qed.
Print Assumptions C13_unmet_condition_fails_patch.

(* INC on an int target: int8/16/32/64 keep their code and the value is the exact sum wrapped in
   two's complement at that width (the documentation is silent about overflow; the wrap is
   stated here); a negative-fixint target comes back as int64. *)
Theorem C13_inc_keeps_type_int : forall code a b nb,
  inc_bytes code (NInt a) (NInt b) = Ok nb ->
  let rc := if in_range 208 210 code then code else 211 in
  leaf_code nb = rc /\
  read_numeric nb = Ok (NInt (signed (width_bits rc) (z_mod_pow (a + b) (width_bits rc)))).
Proof. exact inc_int_type_and_wrap. Qed.
Print Assumptions C13_inc_keeps_type_int.

Theorem C13_inc_keeps_type_uint : forall code a b nb,
  inc_bytes code (NUint a) (NUint b) = Ok nb ->
  let rc := if in_range 204 206 code then code else 207 in
  leaf_code nb = rc /\ read_numeric nb = Ok (NUint ((a + b) mod 2 ^ N.of_nat (width_bits rc))).
Proof. exact inc_uint_type_and_wrap. Qed.
Print Assumptions C13_inc_keeps_type_uint.

Theorem C13_inc_keeps_type_float : forall code a b nb,
  inc_bytes code (NFloat a) (NFloat b) = Ok nb -> leaf_code nb = (if code =? 202 then 202 else 203).
Proof. intros code a b nb [= <-]. unfold enc_float. destruct (code =? 202); reflexivity. Qed.
Print Assumptions C13_inc_keeps_type_float.

(* "keeps the target's type" is false for fixint targets: they are widened to 64 bits. *)
Theorem C13_inc_keeps_code_refuted_for_fixint :
  exists body ops out, apply_with_cond cfg_fixed body ops None = Ok out /\
    body = [129; 161; 120; 1] /\ out = [129; 161; 120; 207; 0; 0; 0; 0; 0; 0; 0; 2].
Proof.
  exists [129; 161; 120; 1], [{| op_kind := 2; op_path := [120]; op_value := [1] |}],
         [129; 161; 120; 207; 0; 0; 0; 0; 0; 0; 0; 2].
  vm_compute. repeat split.
Qed.
Print Assumptions C13_inc_keeps_code_refuted_for_fixint.

(* Comparisons follow numeric order within a class. *)
Theorem C13_numeric_order_int : forall c a b x y, a <> [] -> b <> [] ->
  read_numeric a = Ok (NInt x) -> read_numeric b = Ok (NInt y) ->
  compare_leaf c a b = Ok (of_comparison (x ?= y)%Z).
Proof. intros c a b x y _ _ Ra Rb. apply (compare_leaf_numeric c a b _ _ Ra Rb). discriminate. Qed.
Print Assumptions C13_numeric_order_int.

Theorem C13_numeric_order_uint : forall c a b x y, a <> [] -> b <> [] ->
  read_numeric a = Ok (NUint x) -> read_numeric b = Ok (NUint y) ->
  compare_leaf c a b = Ok (of_comparison (x ?= y)).
Proof. intros c a b x y _ _ Ra Rb. apply (compare_leaf_numeric c a b _ _ Ra Rb). discriminate. Qed.
Print Assumptions C13_numeric_order_uint.

(* Floats follow IEEE order; a NaN operand is unordered. *)
Theorem C13_numeric_order_float : forall a b x y, a <> [] -> b <> [] ->
  read_numeric a = Ok (NFloat x) -> read_numeric b = Ok (NFloat y) ->
  compare_leaf cfg_fixed a b =
    Ok (match SFcompare x y with Some r => of_comparison r | None => CUnord end) /\
  (sf_is_nan x = true \/ sf_is_nan y = true -> compare_leaf cfg_fixed a b = Ok CUnord).
Proof.
  intros a b x y _ _ Ra Rb. rewrite (compare_leaf_numeric _ a b _ _ Ra Rb) by discriminate.
  split; [reflexivity|]. intros [N|N]; destruct x, y; try discriminate; reflexivity.
Qed.
Print Assumptions C13_numeric_order_float.

(* A comparison with a NaN operand is CUnord (second part of the theorem above); of the condition
   operators only 1 = NOT_EQUAL is met on CUnord. *)
Theorem C13_nan_equals_nothing : forall cop, cond_met cop CUnord = Some true <-> cop = 1.
Proof.
  intro cop. split; [|intros ->; reflexivity].
  (* the operators 0..7 in the order of their binary digits, and every other number *)
  destruct cop as [|[[[|p|]|[|p|]|]|[[|p|]|[|p|]|]|]]; try discriminate. reflexivity.
Qed.
Print Assumptions C13_nan_equals_nothing.

(* The code as found: NaN EQUAL NaN was met, NaN NOT_EQUAL NaN was not. *)
Theorem C13_numeric_order_refuted_for_nan_before_fix :
  apply_with_cond cfg_orig nan_body [] (Some (nan_cond 0)) = Ok nan_body /\
  apply_with_cond cfg_orig nan_body [] (Some (nan_cond 1)) = Err ECondNotMet.
Proof. vm_compute. split; reflexivity. Qed.
Print Assumptions C13_numeric_order_refuted_for_nan_before_fix.

(* Refinement of the documented semantics (Patch/DocSpec.v), partial: ONE op of kind SET, DELETE,
   INC, APPEND, PREPEND or REMOVE_AT on a skeleton whose leaves are scalars ([clean]); failures
   have the same error class.  Missing for the full statement: REMOVE_VAL and MERGE (validated by the harness
   against DocSpec on every case), and op lists in which a later op addresses a container
   inserted by an earlier one (refuted below). *)
Theorem C13_ops_refine_docspec_partial : forall s o segs,
  clean s -> op_kind o <= 5 ->
  nres (apply_op cfg_fixed s o segs) = doc_op (norm s) o segs.
Proof. exact (op_refines_docspec cfg_fixed eq_refl). Qed.
Print Assumptions C13_ops_refine_docspec_partial.

(* SET m {b:1}; SET m.b 2 in one patch: the code rejects the patch (TYPE_MISMATCH), the
   documented semantics give m = {b:2}. *)
Theorem C13_ops_refine_docspec_refuted :
  exists body ops d,
    apply_with_cond cfg_fixed body ops None = Err EType /\
    decode body = Ok d /\ (exists d', doc_patch d ops None = Ok d').
Proof.
  exists ex_body, [ex_set [109] [129; 161; 98; 1]; ex_set [109; 46; 98] [2]].
  eexists. split; [vm_compute; reflexivity|]. split; [vm_compute; reflexivity|].
  eexists. vm_compute. reflexivity.
Qed.
Print Assumptions C13_ops_refine_docspec_refuted.

(* MERGE never manufactures duplicate keys: for ANY merge value (repeated keys, keys new to the
   target or not) a target with pairwise distinct keys stays so, and every key of the value is
   present afterwards. *)
Theorem C13_merge_no_duplicate_keys : forall pfs target,
  NoDup (keys target) -> NoDup (keys (merge_into target pfs)).
Proof. exact merge_into_nodup. Qed.
Print Assumptions C13_merge_no_duplicate_keys.

Theorem C13_merge_has_all_keys : forall pfs target k,
  In k (map fst pfs) -> In k (keys (merge_into target pfs)).
Proof. exact merge_into_has_all_keys. Qed.
Print Assumptions C13_merge_has_all_keys.

(* A float32 field is compared with a float64 threshold at float64 precision (the field is widened
   exactly, the threshold never narrowed): 0.1f > 0.1, 0.1f equals only its exact float64 image,
   1f < 1+2^-52, float32 max < 1e300. *)
Theorem C13_float32_field_vs_float64_threshold :
  compare_leaf cfg_fixed f32_0_1 f64_0_1 = Ok CGt /\
  compare_leaf cfg_fixed f64_0_1 f32_0_1 = Ok CLt /\
  compare_leaf cfg_fixed f32_0_1 f64_of_f32_0_1 = Ok CEq /\
  compare_leaf cfg_fixed f32_1 f64_1_eps = Ok CLt /\
  compare_leaf cfg_fixed f32_max f64_1e300 = Ok CLt.
Proof. vm_compute. repeat split. Qed.
Print Assumptions C13_float32_field_vs_float64_threshold.
