(* Props/C15.v — Record guard gives exclusive, arrival-ordered access.
   The model ([Conc/Guard.v], reset = false) is tied to guard.go by the C15 correspondence
   check (exhaustive short operation sequences + random traces on the real guard). *)
From HV Require Import Base.Prelude Conc.Guard Conc.GuardProofs.
From Coq Require Import Sorted.
Local Open Scope Z_scope.

(* For every trace of any number of clients in which a client only releases ids that were
   at some time returned to it (own, duplicate, stale - but not guessed): at most one client
   is inside the guard, and it is the one whose id is at the head of the queue. *)
Theorem C15_mutex : forall tr s',
  own_trace false init tr = true -> run false init tr = Some s' ->
  (length (held s') <= 1)%nat /\
  (forall c id, In (c, id) (held s') -> g_head (g s') = Some id).
Proof.
  intros tr s' Ho Hr. pose proof (run_lineup _ _ _ lineup_init Ho Hr) as L.
  exact (conj (L_one _ L) (I_held_h _ (lineup_inv _ L))).
Qed.
Print Assumptions C15_mutex.

(* Waiting operations acquire in arrival order. An id is handed out at the enqueue as
   [largest + 1], so (third conjunct) greater than every id issued before: id order is arrival
   order. Starts have returned in id order (first) and before every id still waiting (second). *)
Theorem C15_fifo : forall tr s',
  own_trace false init tr = true -> run false init tr = Some s' ->
  StronglySorted Z.lt (ids (ret s')) /\
  (forall r q, In r (ids (ret s')) -> In q (ids (pend s')) -> r < q) /\
  (forall x, In x (ids (ret s')) \/ In x (ids (pend s')) -> x <= largest (g s')).
Proof.
  intros tr s' Ho Hr. pose proof (run_lineup _ _ _ lineup_init Ho Hr) as L. pose proof (lineup_inv _ L) as I.
  exact (conj (I_ret_inc _ I) (conj (I_fifo _ I) (issued_le _ L))).
Qed.
Print Assumptions C15_fifo.

(* Releasing a guard you do not hold has no effect on the guard or on the current holder. *)
Theorem C15_foreign_release_harmless : forall tr s c id,
  own_trace false init tr = true -> run false init tr = Some s ->
  In (c, id) (ret s) -> ~ In (c, id) (held s) ->
  forall s', step false s (ERelease c id) = Some s' -> g s' = g s /\ held s' = held s.
Proof.
  intros tr s c id Ho Hr Hret Hnh s' Hs. simpl in Hs. injection Hs as <-.
  exact (nonholder_release _ _ _ (run_lineup _ _ _ lineup_init Ho Hr) Hret Hnh).
Qed.
Print Assumptions C15_foreign_release_harmless.

(* ... and for ids of any origin: never issued by this guard, zero, negative, issued to
   somebody who is still queued. *)
Theorem C15_release_non_head_noop : forall reset (s : gst) id,
  g_head s <> Some id -> g_release reset s id = s.
Proof. exact guard_release_non_head_noop. Qed.
Print Assumptions C15_release_non_head_noop.

(* The queue never waits on an id that nobody holds or is about to be handed. *)
Theorem C15_head_progress : forall tr s h,
  own_trace false init tr = true -> run false init tr = Some s ->
  g_head (g s) = Some h ->
  (exists c, In (c, h) (held s)) \/ (exists c, In (c, h) (pend s)).
Proof.
  intros tr s h Ho Hr Hh.
  destruct (lineup_head _ _ (run_lineup _ _ _ lineup_init Ho Hr) Hh) as [[c E]|[_ [c [t E]]]];
    [left|right]; exists c; rewrite E; left; reflexivity.
Qed.
Print Assumptions C15_head_progress.

(* The id policy of the pinned commit (ids restart at 1 when the queue empties) violates the
   property; kept machine-checked as the reason for the fix: commit. *)
Theorem C15_mutex_refuted_with_id_reset :
  exists tr, own_trace true init tr = true /\
             option_map (fun s => length (held s)) (run true init tr) = Some 2%nat.
Proof. exists witness_reset. split; vm_compute; reflexivity. Qed.
Print Assumptions C15_mutex_refuted_with_id_reset.
