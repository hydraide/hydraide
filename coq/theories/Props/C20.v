(* Props/C20.v — Swamp addressing is deterministic, in range and SDK/server-consistent.
   Property theorems; what they rest on is proved in Addr/NameProofs.v.  Model: [Addr/Name.v]
   over the Gallina XXH64 of [Addr/XXHash64.v] (compared with the Go library on every harness
   case); clamp = true is the current code. *)
From HV Require Import Base.Prelude Addr.XXHash64 Addr.Name Addr.NameProofs.
Local Open Scope N_scope.

(* The island number is within 1..N for every name and every N >= 1. *)
Theorem C20_in_range : forall t n, 0 < n -> 1 <= island_sdk t n /\ island_sdk t n <= n.
Proof.
  intros t n Hn. unfold island_sdk.
  destruct (mod_bound (xxh64 (island_key t)) n Hn) as (m & -> & H). lia.
Qed.
Print Assumptions C20_in_range.

(* The server's uint16 computation agrees with the SDK's uint64 one for every N it can hold. *)
Theorem C20_sdk_server_agree : forall t n, 0 < n -> n < 65536 -> island_srv t n = island_sdk t n.
Proof.
  intros t n Hn Hn16. unfold island_srv, island_sdk.
  destruct (mod_bound (xxh64 (island_key t)) n Hn) as (m & -> & H).
  rewrite (N.mod_small m 65536) by lia. apply N.mod_small. lia.
Qed.
Print Assumptions C20_sdk_server_agree.

(* On a fresh name object the result is a function of (name, N) alone ... *)
Theorem C20_deterministic : forall f t n, cached_island f 0 t n = (f t n, f t n).
Proof. reflexivity. Qed.
Print Assumptions C20_deterministic.

(* ... but a reused object keeps the first answer: for a changed N it can be out of range
   (known finding island_cache_ignores_changed_n). *)
Theorem C20_cache_stale_refuted :
  exists t n1 n2, 0 < n2 /\
    n2 < fst (cached_island island_sdk (snd (cached_island island_sdk 0 t n1)) t n2).
Proof.
  exists tABC, 1000, 10. split; [reflexivity|].
  unfold cached_island, island_sdk. rewrite island_key_abc. vm_compute. reflexivity.
Qed.
Print Assumptions C20_cache_stale_refuted.

(* Computing the location never fails: every path, depth and folders-per-level value. *)
Theorem C20_path_total : forall t island depth maxf, locate true t island depth maxf <> None.
Proof.
  intros. unfold locate, hashed_dir.
  destruct (dir_parts_clamp depth (hex (xxh64 (path_of t))) (chars_per_level maxf) 0) as (y & -> & _).
  discriminate.
Qed.
Print Assumptions C20_path_total.

(* Pinned commit: the unclamped slice panics at depth 7 (1000 per level) and depth 10 (100). *)
Theorem C20_path_total_refuted_without_clamp :
  hashed_dir false (path_of tABC) 7 1000 = None /\ hashed_dir false (path_of tABC) 10 100 = None.
Proof. unfold hashed_dir. rewrite path_abc. split; vm_compute; reflexivity. Qed.
Print Assumptions C20_path_total_refuted_without_clamp.

Theorem C20_path_total_partial_without_clamp : forall depth hx cpl i,
  (depth = O \/ (i + N.of_nat depth - 1) * cpl <= N.of_nat (length hx)) ->
  dir_parts false hx cpl i depth <> None.
Proof. exact dir_parts_partial_without_clamp. Qed.
Print Assumptions C20_path_total_partial_without_clamp.

(* The repair moves no existing swamp: where the old code gave a location, the new code gives
   the same one. *)
Theorem C20_fix_preserves_locations : forall t island depth maxf l,
  locate false t island depth maxf = Some l -> locate true t island depth maxf = Some l.
Proof.
  intros t island depth maxf l H. unfold locate, hashed_dir in *.
  destruct (dir_parts_clamp depth (hex (xxh64 (path_of t))) (chars_per_level maxf) 0) as (y & -> & Hx).
  destruct (dir_parts false _ _ 0 depth) as [ds|]; [|discriminate].
  rewrite <- (Hx ds eq_refl). exact H.
Qed.
Print Assumptions C20_fix_preserves_locations.

(* Two names with separator-free sanctuary and realm share a location only if they are the
   same name or their paths collide under XXH64 (unavoidable for a 64-bit hash; stated). *)
Theorem C20_location_injective_mod_hash : forall c c' t t' i i' d d' m m' l,
  sepfree t -> sepfree t' ->
  locate c t i d m = Some l -> locate c' t' i' d' m' = Some l ->
  t = t' \/ (path_of t <> path_of t' /\ xxh64 (path_of t) = xxh64 (path_of t')).
Proof.
  intros c c' t t' i i' d d' m m' l Hsf Hsf' H H'. unfold locate in *.
  destruct (hashed_dir c (path_of t) d m); [|discriminate].
  destruct (hashed_dir c' (path_of t') d' m'); [|discriminate].
  injection H as <-. injection H' as _ _ Hf. unfold swamp_folder in Hf.
  destruct (list_eq_dec N.eq_dec (path_of t) (path_of t')) as [E|E]; [left; apply path_of_inj; assumption|].
  right. split; [exact E | symmetry; exact Hf].
Qed.
Print Assumptions C20_location_injective_mod_hash.

(* With a '/' inside a part, two different names have one location (known finding). *)
Theorem C20_separator_collision_refuted :
  exists t t', t <> t' /\ path_of t = path_of t' /\
               forall i d m, locate true t i d m = locate true t' i d m.
Proof.
  exists {| sanct := [97;47;98]; realm := [99]; swamp := [100] |},
         {| sanct := [97]; realm := [98;47;99]; swamp := [100] |}.
  split; [discriminate|]. split; [reflexivity|].
  intros i d m. unfold locate, swamp_folder. reflexivity.
Qed.
Print Assumptions C20_separator_collision_refuted.

(* Load inverts the canonical path for separator-free parts. *)
Theorem C20_load_roundtrip : forall t,
  ~ In SEP (sanct t) -> ~ In SEP (realm t) -> ~ In SEP (swamp t) -> load (path_of t) = Some t.
Proof.
  intros [s r w] Hs Hr Hw. unfold load, path_of. simpl in *.
  rewrite !split_sep_app, split_sep_nosep by assumption. reflexivity.
Qed.
Print Assumptions C20_load_roundtrip.

(* Paths with fewer than three parts make Load panic. *)
Theorem C20_load_total_refuted : load [97; 47; 98] = None /\ load [] = None.
Proof. split; reflexivity. Qed.
Print Assumptions C20_load_total_refuted.

Theorem C20_xxh64_vectors :
  xxh64 [] = 0xef46db3751d8e999 /\
  xxh64 [97] = 0xd24ec4f1a98c6e5b /\
  xxh64 [97;98;99] = 0x44bc2cf5ad770999 /\
  xxh64 [97;47;98;47;99] = 0xe94f700086cf8f20.
Proof. exact xxh64_vectors. Qed.
Print Assumptions C20_xxh64_vectors.

(* The Realm and Swamp builders return objects with empty caches ... *)
Theorem C20_builders_are_fresh : forall o x,
  (o_isl_sdk (obj_realm o x) = 0 /\ o_isl_srv (obj_realm o x) = 0 /\ o_hp (obj_realm o x) = None) /\
  (o_isl_sdk (obj_swamp o x) = 0 /\ o_isl_srv (obj_swamp o x) = 0 /\ o_hp (obj_swamp o x) = None).
Proof. intros. repeat split. Qed.
Print Assumptions C20_builders_are_fresh.

(* ... and an object never queried answers with the pure function of its own parts / path. *)
Theorem C20_fresh_object_answers_pure : forall o n island depth maxf,
  (o_isl_sdk o = 0 -> fst (obj_island_sdk o n) = island_sdk (obj_triple o) n) /\
  (o_isl_srv o = 0 -> fst (obj_island_srv o n) = island_srv (obj_triple o) n) /\
  (o_hp o = None -> fst (obj_path ROOT o island depth maxf) = pure_path ROOT (o_path o) island depth maxf).
Proof.
  intros o n island depth maxf. unfold obj_island_sdk, obj_island_srv, obj_path, cached_island.
  repeat split; intro H; rewrite H; reflexivity.
Qed.
Print Assumptions C20_fresh_object_answers_pure.

(* Whatever was asked of the sanctuary and sanctuary/realm prefix objects, the swamp name built
   from them has the island and location of its own triple. *)
Theorem C20_prefix_queries_do_not_leak : forall s r w n1 n2 n island depth maxf,
  let o1 := snd (obj_island_srv (snd (obj_island_sdk (obj_sanct s) n1)) n1) in
  let o2 := snd (obj_island_srv (snd (obj_island_sdk (obj_realm o1 r) n2)) n2) in
  let o3 := obj_swamp o2 w in
  let t := {| sanct := s; realm := r; swamp := w |} in
  fst (obj_island_sdk o3 n) = island_sdk t n /\
  fst (obj_island_srv o3 n) = island_srv t n /\
  o_path o3 = path_of t /\
  fst (obj_path ROOT o3 island depth maxf) = model_path t island depth maxf.
Proof.
  intros s r w n1 n2 n island depth maxf o1 o2 o3 t.
  assert (Hpath : o_path o3 = path_of t).
  { unfold path_of. simpl. rewrite <- app_assoc. reflexivity. }
  split; [reflexivity|]. split; [reflexivity|]. split; [exact Hpath|].
  change (fst (obj_path ROOT o3 island depth maxf)) with (pure_path ROOT (o_path o3) island depth maxf).
  rewrite Hpath. reflexivity.
Qed.
Print Assumptions C20_prefix_queries_do_not_leak.

(* A repeated query with the same N repeats the answer. *)
Theorem C20_repeated_query_repeats : forall o n,
  0 < n -> fst (obj_island_sdk (snd (obj_island_sdk o n)) n) = fst (obj_island_sdk o n).
Proof.
  intros o n Hn. unfold obj_island_sdk, cached_island.
  destruct (o_isl_sdk o =? 0) eqn:E; simpl; [|rewrite E; reflexivity].
  destruct (N.eqb_spec (island_sdk (obj_triple o) n) 0) as [H|]; [|reflexivity].
  unfold island_sdk in H. rewrite N.add_1_r in H. destruct (N.neq_succ_0 _ H).
Qed.
Print Assumptions C20_repeated_query_repeats.

(* The client's answer is the most recent table assignment covering the name's island ... *)
Theorem C20_route_sound : forall tb island h,
  route_h tb island = Some h ->
  exists pre lo hi post, tb = pre ++ (h, (lo, hi)) :: post /\ lo <= island /\ island <= hi /\
    route_h post island = None.
Proof. exact route_h_sound. Qed.
Print Assumptions C20_route_sound.

(* ... every covered island is routed ... *)
Theorem C20_route_complete : forall tb island h lo hi,
  In (h, (lo, hi)) tb -> lo <= island -> island <= hi -> route_h tb island <> None.
Proof. exact route_h_complete. Qed.
Print Assumptions C20_route_complete.

(* ... and names with the same island get the same answer. *)
Theorem C20_route_depends_on_island_only : forall tb t t' n,
  island_sdk t n = island_sdk t' n -> route_h tb (island_sdk t n) = route_h tb (island_sdk t' n).
Proof. intros tb t t' n H. exact (f_equal (route_h tb) H). Qed.
Print Assumptions C20_route_depends_on_island_only.
