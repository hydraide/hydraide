(* Props/C12.v — Cap-bearing operations never push the match count above the cap.
   Property theorems; what they rest on is proved in Swamp/CapProofs.v.
   The model (Swamp/Cap.v, configuration [cfg_now]) is tied to gateway_patch.go,
   swamp_patch.go, swamp_patch_expired.go, swamp.go and beacon.go by the C12 correspondence
   check (exhaustive four-cell table, sequential histories, forced schedules through the
   capPreCount / patchExpired hook points, free-running stress with the count oracle). *)
From HV Require Import Base.Prelude Swamp.Cap Swamp.CapProofs.

(* For any number of concurrent cap-bearing PatchTreasures / PatchExpired / ShiftMatching
   batches with the same cap, any number of cap-less operations that cannot move a record into
   the filter (delete, overwrite with a non-matching body, expiry change), any initial swamp
   whose matching count does not exceed the cap, and every schedule: the matching count never
   exceeds the cap. *)
Theorem C12_cap_invariant : forall m rs ps sched,
  matching rs <= m -> matching (recs (run (cfg_now m) sched (init rs ps))) <= m.
Proof.
  intros m rs ps sched H. pose proof (I_bound _ _ (reach_inv m rs ps sched H)) as B. simpl in B. lia.
Qed.
Print Assumptions C12_cap_invariant.

(* The four-cell rule of an explicit-key patch: rejected exactly when it would move a record
   from not-matching to matching with an exhausted budget; budget is consumed exactly by an
   accepted not-matching -> matching patch; a rejected patch leaves the budget unchanged; the
   other three cells always proceed with the budget unchanged.  ([b' < b] rules out b = 0, where
   the truncated [b - 1] is 0 as well.) *)
Theorem C12_four_cell : forall pre post b,
  let '(ok, b') := patch_fields_cap pre post b in
  (ok = false <-> (pre = false /\ post = true /\ b = 0)) /\
  (b' = b - 1 /\ b' < b <-> (ok = true /\ pre = false /\ post = true)) /\
  (ok = false -> b' = b) /\
  ((pre = true \/ post = false) -> ok = true /\ b' = b).
Proof.
  intros pre post b. destruct (patch_fields_cap pre post b) as [ok b'] eqn:E. apply four_cell in E.
  destruct pre, post, b as [|b]; simpl in E; destruct E as [-> ->]; simpl; intuition (discriminate || lia).
Qed.
Print Assumptions C12_four_cell.

(* One PatchFields call of a batch, whatever its outcome (patched, created, rejected, condition not
   met, key not found), never raises matching + remaining budget. *)
Theorem C12_patch_item_budget : forall cr it b l rs b' code,
  patch_item cr it b l = (rs, b', code) -> matching rs + b' <= matching l + b.
Proof. exact patch_item_bound. Qed.
Print Assumptions C12_patch_item_budget.

(* At most one thread is inside a cap-bearing flow (capMu). *)
Theorem C12_single_holder : forall m rs ps sched t1 t2 l1 l2,
  matching rs <= m ->
  let s := run (cfg_now m) sched (init rs ps) in
  nth_error (thr s) t1 = Some l1 -> nth_error (thr s) t2 = Some l2 ->
  holds (lpc l1) = true -> holds (lpc l2) = true -> t1 = t2.
Proof.
  intros m rs ps sched t1 t2 l1 l2 H s H1 H2 Hh1 Hh2.
  pose proof (reach_inv m rs ps sched H) as HI. fold s in HI.
  pose proof (I_hold _ _ HI _ _ H1 Hh1). pose proof (I_hold _ _ HI _ _ H2 Hh2). congruence.
Qed.
Print Assumptions C12_single_holder.

(* The pinned commit counted before taking capMu: two batches with max = 1 both count 0 and
   both proceed. Kept machine-checked as the reason for the fix: commit. *)
Theorem C12_cap_invariant_refuted_count_before_lock :
  exists rs ps sched,
    matching rs <= 1 /\
    matching (recs (run {| count_first := true; index_count := false; cmax := 1 |} sched (init rs ps))) = 2.
Proof.
  exists [r_ 1 false false false; r_ 2 false false false],
         [PT false [it_ 1 true true]; PT false [it_ 2 true true]],
         [0;1;0;0;0;1;1;1].
  vm_compute. split; [lia|reflexivity].
Qed.
Print Assumptions C12_cap_invariant_refuted_count_before_lock.

(* The pinned commit counted Cap.Filter only over the members of the walked index: claimed
   records whose expiry was cleared are invisible to the next PatchExpired. *)
Theorem C12_cap_invariant_refuted_index_only_count :
  exists rs ps sched,
    matching rs <= 1 /\
    matching (recs (run {| count_first := false; index_count := true; cmax := 1 |} sched (init rs ps))) = 3.
Proof.
  exists [r_ 1 false true true; r_ 2 false true true; r_ 3 false true true],
         [PE 1 true false false; PE 1 true false false; PE 1 true false false],
         [0;0;0;0;1;1;1;1;2;2;2;2].
  vm_compute. split; [lia|reflexivity].
Qed.
Print Assumptions C12_cap_invariant_refuted_index_only_count.
