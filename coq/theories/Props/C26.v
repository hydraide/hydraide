(* Props/C26.v — Malformed requests fail cleanly without side effects.
   Swamp/Validate.v models the validation prefix of the gateway handlers, the recover wrapper and the
   safeops / vigil pairing; it is tied to the code by the C26 correspondence check (structural request
   generator over every request message of the service, executed in a child process). *)
From HV Require Import Base.Prelude Swamp.Api Swamp.Validate Swamp.ValidateProofs.
Local Open Scope Z_scope.

(* For every handler, every request shape and every outcome of the body - including a panic - the
   safeops counter returns to its previous value, and so does the vigil counter, except on the
   auto-destroy paths, where the destroyed swamp object is left at -1 (double cease; C17). *)
Theorem C26_counters_restored : forall c h sh b,
  safeops_delta (run c h sh b) = 0 /\
  vigil_delta (run c h sh b) =
    match validate c h sh, b with
    | Proceed, BAutoDestroy => if has_vigil h then -1 else 0
    | _, _ => 0
    end.
Proof.
  (* the trace depends on the request only through the outcome of the validation, and on the
     handler only through the three wrapper switches *)
  intros c h sh b. unfold run.
  destruct (validate c h sh) as [e wr| |]; [|destruct (summons h), (has_vigil h), b|];
    destruct (has_safeops h); split; reflexivity.
Qed.
Print Assumptions C26_counters_restored.

(* A rejected request returns before any swamp is summoned, created or pinned, and it is answered
   with an error, never with (nil, nil). *)
Theorem C26_no_side_effect_on_reject : forall c h sh b e wr,
  validate c h sh = Reject e wr ->
  existsb is_summon (run c h sh b) = false /\ existsb is_begin (run c h sh b) = false /\
  existsb is_nilnil (run c h sh b) = false.
Proof.
  intros c h sh b e wr H. unfold run. rewrite H.
  destruct (has_safeops h), wr; repeat split; reflexivity.
Qed.
Print Assumptions C26_no_side_effect_on_reject.

(* No request shape makes the (repaired) validation panic, for every handler ... *)
Theorem C26_well_defined_response : forall h sh, validate vcfg_now h sh <> PanicAt.
Proof. exact well_defined_now. Qed.
Print Assumptions C26_well_defined_response.

(* ... so (nil, nil) can only come from a panic inside a handler body. *)
Theorem C26_nilnil_only_from_body_panic : forall h sh b,
  b <> BPanic -> existsb is_nilnil (run vcfg_now h sh b) = false.
Proof.
  intros h sh b Hb. destruct (validate vcfg_now h sh) as [e wr| |] eqn:E;
    [apply (C26_no_side_effect_on_reject _ _ _ b _ _ E) | | destruct (well_defined_now h sh E)].
  unfold run. rewrite E.
  destruct b; [|contradiction|]; destruct (has_safeops h), (summons h), (has_vigil h); reflexivity.
Qed.
Print Assumptions C26_nilnil_only_from_body_panic.

(* A treasure key the storage format cannot hold (longer than its 16-bit key length) is rejected with
   InvalidArgument by every handler that can create a treasure, before any swamp is touched - it is
   never acknowledged and then dropped by the writer. *)
Theorem C26_oversized_key_rejected : forall h sh,
  In h [HSet; HInc; HPush] -> sh_name sh = NOk -> sh_kvnil sh = false -> sh_by0 sh = false ->
  sh_wkey_long sh = true -> validate vcfg_now h sh = Reject EInvalid false.
Proof.
  intros h sh Hin Hn Hk Hb Hl.
  destruct Hin as [<-|[<-|[<-|[]]]]; unfold validate, check_shape;
    rewrite Hn, ?Hk, ?Hb, Hl, orb_true_r; reflexivity.
Qed.
Print Assumptions C26_oversized_key_rejected.

(* A request with several swamp entries (Set, Get) that is answered with a rejection has executed
   none of its entries, wherever the malformed entry stands, and released the system lock: all
   entries are validated before the first one is executed. *)
Theorem C26_rejected_multi_entry_request_has_no_side_effect : forall c h shs,
  existsb is_reject_ret (run_many c h shs) = true ->
  existsb is_summon (run_many c h shs) = false /\ existsb is_begin (run_many c h shs) = false /\
  safeops_delta (run_many c h shs) = 0.
Proof. exact rejected_many_no_side_effect. Qed.
Print Assumptions C26_rejected_multi_entry_request_has_no_side_effect.

(* Validating each entry right before executing it does not have this property (witness: a valid
   entry followed by one with a short swamp name). *)
Theorem C26_single_pass_validation_refuted :
  existsb is_reject_ret (run_many_single_pass vcfg_now HSet [ok_shape; short_shape]) = true /\
  existsb is_summon (run_many_single_pass vcfg_now HSet [ok_shape; short_shape]) = true.
Proof. split; reflexivity. Qed.
Print Assumptions C26_single_pass_validation_refuted.

(* The pinned commit: every name-loading handler panicked on a swamp name with fewer than three
   parts, Get on an empty key list; the answer was (nil, nil). Kept as the reason for the fix: commits. *)
Theorem C26_well_defined_response_refuted_at_pinned_commit :
  (forall h, In h all_handlers -> h <> HLock -> h <> HUnlock -> validate vcfg_pinned h short_shape = PanicAt) /\
  validate vcfg_pinned HGet emptykeys_shape = PanicAt /\
  existsb is_nilnil (run vcfg_pinned HGetAll short_shape BOk) = true.
Proof.
  split; [|split; reflexivity].
  intros h _ H1 H2. destruct h; try reflexivity; [destruct H1 | destruct H2]; reflexivity.
Qed.
Print Assumptions C26_well_defined_response_refuted_at_pinned_commit.
