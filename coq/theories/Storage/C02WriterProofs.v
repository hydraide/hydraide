(* Storage/C02WriterProofs.v — the repaired writer keeps the file well-shaped after every single
   file operation of every API call, whatever the fault oracle does; block lists only grow; the
   entries in the file plus the buffer are exactly what was submitted ([step_ok] for one call,
   [run_ok] for histories). The statements of Props/C02.v and Props/C25.v are instances of
   [crash_recovers], [stays_readable], [synced_entries_durable]. *)
From HV Require Import Base.Prelude Storage.C02Fs Storage.C02Writer Storage.C02Crash Storage.C02Proofs.
From Coq Require Import Lia.
Local Open Scope N_scope.

Inductive chain (P : fs -> Prop) : fs -> list fsop -> Prop :=
| chain_nil : forall f, P f -> chain P f []
| chain_cons : forall f o t, P f -> chain P (fs_step f o) t -> chain P f (o :: t).

Lemma chain_prefix P f ops : chain P f ops -> forall p q, ops = p ++ q -> P (fs_run f p).
Proof.
  induction 1 as [f Hf|f o t Hf Hc IH]; intros p q E.
  - destruct p; [exact Hf|discriminate].
  - destruct p as [|o' p]; [exact Hf|]. injection E as -> E. simpl. eapply IH; eauto.
Qed.

Lemma chain_here P f ops : chain P f ops -> P f.
Proof. now inversion 1. Qed.

Lemma chain_app P f a b : chain P f a -> chain P (fs_run f a) b -> chain P f (a ++ b).
Proof.
  revert f; induction a as [|o a IH]; intros f Ha Hb; [exact Hb|].
  inversion Ha; subst. simpl. constructor; [assumption|]. apply IH; assumption.
Qed.

Lemma fs_run_app f a b : fs_run (fs_run f a) b = fs_run f (a ++ b).
Proof. unfold fs_run. now rewrite fold_left_app. Qed.

(* the [Opaque pre] of C02Proofs.v ended with its section *)
Opaque pre.

Section WithName.
Variable nlen : N.

Notation pre := (pre nlen).
Notation shaped := (shaped nlen).
Notation Inv := (Inv nlen).

Definition View (f : fs) (ds bs : list block) (t : content) : Prop :=
  shaped ds (dur f) /\ vol f = Some (pre ++ bc bs ++ t) /\ torn t /\ prefix ds bs /\ blocks_ok bs.

Lemma view_inv f ds bs t : View f ds bs t -> Inv f ds bs.
Proof. intros (Hd & Hv & Ht & Hp & Hok). repeat split; auto. rewrite Hv. now apply sh_full. Qed.

Definition Keeps (ds0 bs0 : list block) (f : fs) : Prop :=
  exists ds bs, Inv f ds bs /\ prefix ds0 ds /\ prefix bs0 bs.

Lemma view_keeps ds0 bs0 f ds bs t :
  View f ds bs t -> prefix ds0 ds -> prefix bs0 bs -> Keeps ds0 bs0 f.
Proof. intros. exists ds, bs. eauto using view_inv. Qed.

Local Hint Resolve prefix_refl prefix_app : core.

Lemma inv_keeps f ds bs : Inv f ds bs -> Keeps ds bs f.
Proof. intros. exists ds, bs. auto. Qed.

Lemma chain_keeps_mono ds0 bs0 ds1 bs1 f ops :
  prefix ds0 ds1 -> prefix bs0 bs1 -> chain (Keeps ds1 bs1) f ops -> chain (Keeps ds0 bs0) f ops.
Proof.
  intros H1 H2.
  induction 1 as [f (ds & bs & HI & Ha & Hb)|f o t (ds & bs & HI & Ha & Hb) _ IH];
    constructor; try exact IH; exists ds, bs; eauto using prefix_trans.
Qed.

(* a torn tail only when the writer knows about it ([w_dirty] is the Go writer's tailDirty) *)
Definition OpenInv (f : fs) (w : wstate) (ds bs : list block) : Prop :=
  exists t, View f ds bs t /\ (w_dirty w = false -> t = []) /\ w_end w = clen (pre ++ bc bs).

(* the invariant between API calls *)
Definition SInv (f : fs) (w : wstate) (ds bs : list block) : Prop :=
  Inv f ds bs /\
  (w_open w = true -> OpenInv f w ds bs) /\
  (w_open w = false -> w_buf w = []).

Lemma openinv_inv f w ds bs : OpenInv f w ds bs -> Inv f ds bs.
Proof. intros (t & HV & _). eapply view_inv; eauto. Qed.

Lemma openinv_keeps f w ds bs : OpenInv f w ds bs -> Keeps ds bs f.
Proof. intros (t & HV & _). eauto using view_keeps. Qed.

Lemma sinv_open f w ds bs : w_open w = true -> OpenInv f w ds bs -> SInv f w ds bs.
Proof.
  intros Ho HO. split; [eapply openinv_inv; exact HO|]. split; [intros _; exact HO|congruence].
Qed.

Lemma sinv_closed f ds bs : Inv f ds bs -> SInv f w_closed ds bs.
Proof. intros H. split; [exact H|]. split; [discriminate|reflexivity]. Qed.

Lemma step_app f s n c : n <> 0 -> vol f = Some c ->
  fs_step f (OApp s n) = mkfs (dur f) (Some (c ++ [(s, n)])).
Proof. intros Hn Hv. simpl. destruct (N.eqb_spec n 0); [contradiction|]. now rewrite Hv. Qed.

Lemma view_app_bh f ds bs b j : View f ds bs [] -> 1 <= j <= BH ->
  View (fs_step f (OApp (SBh b) j)) ds bs [(SBh b, j)].
Proof.
  intros (Hd & Hv & Ht & Hp & Hok) Hj. erewrite step_app by (eauto; lia).
  repeat split; simpl; auto.
  - (* vol *) now rewrite app_nil_r, <- !app_assoc.
  - (* torn *) now constructor.
Qed.

Lemma view_app_pl_part f ds bs b j : View f ds bs [(SBh b, BH)] -> 1 <= j < b_plen b ->
  View (fs_step f (OApp (SPl b) j)) ds bs [(SBh b, BH); (SPl b, j)].
Proof.
  intros (Hd & Hv & Ht & Hp & Hok) Hj. erewrite step_app by (eauto; lia).
  repeat split; simpl; auto.
  - (* vol *) now rewrite <- !app_assoc.
  - (* torn *) now constructor.
Qed.

Lemma view_app_pl_full f ds bs b : View f ds bs [(SBh b, BH)] -> 1 <= b_plen b ->
  View (fs_step f (OApp (SPl b) (b_plen b))) ds (bs ++ [b]) [].
Proof.
  intros (Hd & Hv & Ht & Hp & Hok) Hj. erewrite step_app by (eauto; lia).
  repeat split; simpl; auto.
  - (* vol *) rewrite bc_app, app_nil_r, <- !app_assoc. reflexivity.
  - (* torn *) constructor.
  - (* prefix *) eapply prefix_trans; [exact Hp|apply prefix_app].
  - (* blocks_ok *) apply Forall_app. split; [assumption|]. repeat constructor. assumption.
Qed.

Lemma view_trunc f ds bs t : View f ds bs t ->
  View (fs_step f (OTrunc (clen (pre ++ bc bs)))) ds bs [].
Proof.
  intros (Hd & Hv & Ht & Hp & Hok). simpl. rewrite Hv.
  repeat split; simpl; auto; [|constructor (* torn [] *)].
  (* vol: cutting at the end of the last complete block removes exactly [t] *)
  rewrite app_nil_r, app_assoc, cut_app_le by lia. rewrite cut_all; [reflexivity| |lia].
  apply Forall_app. split; [apply cpos_pre|now apply cpos_bc].
Qed.

Lemma view_fsync f ds bs t : View f ds bs t -> View (fs_step f OFsync) bs bs t.
Proof.
  intros (Hd & Hv & Ht & Hp & Hok). simpl. repeat split; simpl; auto using prefix_refl.
  rewrite Hv. now apply sh_full.
Qed.

Lemma bw_short f ds bs b j :
  View f ds bs [] -> j < blen b ->
  exists t, View (fs_run f (block_write_ops b j)) ds bs t /\
            chain (Keeps ds bs) f (block_write_ops b j).
Proof.
  intros HV Hj. unfold block_write_ops, blen in *.
  assert (H0 : Keeps ds bs f) by (eauto using view_keeps).
  destruct (N.leb_spec j BH) as [Hle|Hgt].
  - destruct (N.eq_dec j 0) as [->|Hnz].
    + exists []. split; [exact HV|]. now repeat constructor.
    + assert (HV' := view_app_bh f ds bs b j HV ltac:(lia)).
      exists [(SBh b, j)]. split; [exact HV'|].
      constructor; [exact H0|]. constructor. eauto using view_keeps.
  - assert (HV1 := view_app_bh f ds bs b BH HV ltac:(flia)).
    assert (HV2 := view_app_pl_part _ ds bs b (j - BH) HV1 ltac:(lia)).
    exists [(SBh b, BH); (SPl b, j - BH)]. split; [exact HV2|].
    constructor; [exact H0|]. constructor; [|constructor]; eauto using view_keeps.
Qed.

Lemma bw_full f ds bs b :
  View f ds bs [] -> 1 <= b_plen b ->
  View (fs_run f (block_write_ops b (blen b))) ds (bs ++ [b]) [] /\
  chain (Keeps ds bs) f (block_write_ops b (blen b)).
Proof.
  intros HV Hb. unfold block_write_ops, blen.
  destruct (N.leb_spec (BH + b_plen b) BH) as [Hle|Hgt]; [lia|].
  replace (BH + b_plen b - BH) with (b_plen b) by lia.
  assert (HV1 := view_app_bh f ds bs b BH HV ltac:(flia)).
  assert (HV2 := view_app_pl_full _ ds bs b HV1 Hb).
  split; [exact HV2|].
  constructor; [|constructor; [|constructor]]; eauto using view_keeps.
Qed.

Lemma elog_app a b : elog_of (a ++ b) = elog_of a ++ elog_of b.
Proof. unfold elog_of. now rewrite flat_map_app. Qed.

Definition Flushed (f : fs) (w : wstate) (ds bs : list block)
                   (r : wstate * list fsop * bool) : Prop :=
  let '(w', ops, ok) := r in
  exists bs',
    OpenInv (fs_run f ops) w' ds bs' /\ prefix bs bs' /\ w_open w' = w_open w /\
    chain (Keeps ds bs) f ops /\
    elog_of bs' ++ w_buf w' = elog_of bs ++ w_buf w /\
    (ok = true -> w_buf w' = []).

Lemma flushed_keep f w ds bs w' ops ok :
  OpenInv (fs_run f ops) w' ds bs -> chain (Keeps ds bs) f ops ->
  w_open w' = w_open w -> w_buf w' = w_buf w -> (ok = true -> w_buf w = []) ->
  Flushed f w ds bs (w', ops, ok).
Proof. intros HO Hc Ho Hb Hk. exists bs. rewrite Hb. repeat split; auto using prefix_refl. Qed.

Lemma flush_clean_ok f w ds bs sz ff :
  View f ds bs [] -> w_end w = clen (pre ++ bc bs) -> ff_ok sz ff ->
  Flushed f w ds bs (flush_clean true w sz ff).
Proof.
  intros HV Hend [Hsz Hff]. unfold flush_clean.
  assert (H0 : Keeps ds bs f) by (eauto using view_keeps).
  destruct (w_buf w) as [|e es] eqn:Hbuf.
  { apply flushed_keep; auto; [exists []; auto|now constructor]. }
  set (b := mkblock (e :: es) sz).
  assert (Hfull : forall ok,
    Flushed f w ds bs (mkw (w_open w) [] (w_end w + blen b) false,
                       block_write_ops b (blen b) ++ [OHdr], ok)).
  { intros ok. destruct (bw_full f ds bs b HV Hsz) as [HV2 Hc].
    exists (bs ++ [b]). rewrite <- fs_run_app. split.
    { exists []. split; [exact HV2|]. split; [reflexivity|].
      cbn [w_end]. rewrite Hend, bc_app, !clen_app. unfold blen. simpl. lia. }
    split; [apply prefix_app|]. split; [reflexivity|]. split.
    { apply chain_app; [exact Hc|].
      constructor; [|constructor]; eauto using view_keeps. }
    split; [|reflexivity]. rewrite Hbuf, elog_app, app_nil_r. simpl. now rewrite app_nil_r. }
  destruct ff as [|j| |j|].
  - (* FFok *) apply Hfull.
  - (* FFshort: cut back, keep the entries *)
    destruct (bw_short f ds bs b j HV Hff) as (t & HVt & Hc).
    assert (HV3 := view_trunc _ ds bs t HVt). rewrite <- Hend in HV3.
    apply flushed_keep; [| |reflexivity|reflexivity|discriminate].
    + rewrite <- fs_run_app. exists []; auto.
    + apply chain_app; [exact Hc|].
      constructor; [|constructor]; eauto using view_keeps.
  - (* FFhdr *) apply Hfull.
  - (* FFshortDirty: the truncation back failed too: the tail stays, the writer remembers it *)
    destruct (bw_short f ds bs b j HV Hff) as (t & HVt & Hc).
    apply flushed_keep; [|exact Hc|reflexivity|now rewrite Hbuf|discriminate].
    exists t. split; [exact HVt|]. split; [discriminate|exact Hend].
  - (* FFpre, no dirty tail: as FFok *) apply Hfull.
Qed.

Lemma flush_ok f w ds bs sz ff :
  OpenInv f w ds bs -> ff_ok sz ff -> Flushed f w ds bs (flush true w sz ff).
Proof.
  intros HO Hff. assert (H0 := openinv_keeps _ _ _ _ HO). destruct HO as (t & HV & Hdt & Hend).
  unfold flush. destruct (w_dirty w) eqn:Hd.
  2:{ rewrite (Hdt eq_refl) in HV. now apply flush_clean_ok. }
  (* the dirty tail is cut off first; then the flush proceeds as from a clean writer *)
  assert (HV0 := view_trunc f ds bs t HV). rewrite <- Hend in HV0.
  generalize (flush_clean_ok _ (mkw (w_open w) (w_buf w) (w_end w) false) ds bs sz ff
                HV0 Hend Hff).
  destruct (flush_clean true _ sz ff) as [[w1 ops1] ok1].
  intros (bs' & HO & Hp & Ho & Hc & Hlog & Hb).
  assert (Hcut : Flushed f w ds bs (w1, OTrunc (w_end w) :: ops1, ok1)).
  { exists bs'. repeat split; auto. now constructor. }
  destruct ff; [exact Hcut..|].
  (* FFpre: the dirty tail could not be removed: nothing happens *)
  apply flushed_keep; [|now constructor|reflexivity|reflexivity|discriminate].
  exists t. split; [exact HV|]. split; [congruence|exact Hend].
Qed.

(* operations that leave the volatile image alone *)
Definition quiet (o : fsop) : bool :=
  match o with OHdr | OFsync | OClose => true | _ => false end.

Definition syncs (ops : list fsop) : bool :=
  existsb (fun o => match o with OFsync => true | _ => false end) ops.

Lemma quiet_run tl : forall f w ds bs,
  OpenInv f w ds bs -> forallb quiet tl = true ->
  OpenInv (fs_run f tl) w (if syncs tl then bs else ds) bs /\ chain (Keeps ds bs) f tl.
Proof.
  induction tl as [|o tl IH]; intros f w ds bs HO Hq.
  { split; [exact HO|]. constructor. eapply openinv_keeps; exact HO. }
  apply andb_true_iff in Hq as [Ho Hq].
  assert (H0 := openinv_keeps _ _ _ _ HO).
  destruct o; try discriminate Ho.
  (* OHdr, OFsync, OClose remain; a header rewrite and a close leave the file system as it is *)
  1,3: destruct (IH f w ds bs HO Hq) as [HO' Hc]; split; [exact HO'|now constructor].
  destruct HO as (t & HV & Hdt & Hend).
  assert (HO1 : OpenInv (fs_step f OFsync) w bs bs).
  { exists t. split; [exact (view_fsync _ _ _ _ HV)|auto]. }
  destruct (IH _ w bs bs HO1 Hq) as [HO' Hc].
  split; [simpl; now destruct (syncs tl)|]. constructor; [exact H0|].
  eapply chain_keeps_mono; [apply HV|apply prefix_refl|exact Hc].
Qed.

(* createNewFile: every state it passes holds a prefix of the header + name area *)
Lemma create_ok f :
  shaped [] (dur f) -> Keeps [] [] f ->
  chain (Keeps [] []) f (create_ops nlen) /\ View (fs_run f (create_ops nlen)) [] [] [].
Proof.
  intros Hd H0.
  assert (Hcut : forall c, (exists m, c = cut m pre) -> Keeps [] [] (mkfs (dur f) (Some c))).
  { intros c [m ->]. exists [], []. split; [|split; apply prefix_refl].
    split; [exact Hd|]. split; [apply shaped_cut_pre|]. split; [apply prefix_refl|constructor]. }
  assert (Hhdr : exists m, [(SHdr nlen, FH)] = cut m pre).
  { exists FH. destruct (pre_cases nlen) as [[_ ->]|[_ ->]]; reflexivity. }
  assert (Hrun : fs_run f (create_ops nlen) = mkfs (dur f) (Some pre)).
  { simpl. destruct (pre_cases nlen) as [[Hn ->]|[Hn ->]];
      destruct (N.eqb_spec nlen 0); (reflexivity || lia). }
  assert (Hall : exists m, pre = cut m pre).
  { exists (clen pre). symmetry. apply cut_all; [apply cpos_pre|lia]. }
  split.
  - unfold create_ops. constructor; [exact H0|].
    constructor; [apply Hcut; exists 0; now rewrite cut_0|].
    constructor; [apply Hcut; exact Hhdr|]. constructor.
    change (Keeps [] [] (fs_run f (create_ops nlen))). rewrite Hrun. apply Hcut; exact Hall.
  - rewrite Hrun. split; [exact Hd|]. split; [simpl; now rewrite app_nil_r|].
    split; [constructor|]. split; [apply prefix_refl|constructor].
Qed.

Definition next_open (a : api) (open : bool) : bool :=
  match a with AOpen => true | AClose _ _ _ => false | _ => open end.

Definition is_close (a : api) : bool := match a with AClose _ _ _ => true | _ => false end.
Definition is_barrier (a : api) : bool :=
  match a with AClose _ _ _ | ASync _ _ _ => true | _ => false end.

(* a failed Close drops the buffer with the descriptor: the entry equation is claimed for every
   other outcome *)
Definition StepConcl f w ds bs a (r : wstate * list fsop * bool) : Prop :=
  let '(w', ops, ok) := r in
  exists ds' bs',
    SInv (fs_run f ops) w' ds' bs' /\ prefix ds ds' /\ prefix bs bs' /\
    chain (Keeps ds bs) f ops /\ w_open w' = next_open a (w_open w) /\
    (is_close a && negb ok = false ->
       elog_of bs' ++ w_buf w' = elog_of bs ++ w_buf w ++ submitted (w_open w) [a]) /\
    (is_barrier a = true -> ok = true -> w_open w = true -> ds' = bs' /\ w_buf w' = []).

(* the calls that leave a writer with open flag [o] as it is *)
Definition idle (a : api) (o : bool) : bool :=
  match a with AOpen => o | AOpenFail _ => true | _ => negb o end.

Lemma idle_spec a o :
  idle a o = true ->
  next_open a o = o /\ submitted o [a] = [] /\ (is_barrier a = true -> o = false).
Proof. destruct a, o; try discriminate; repeat split; discriminate. Qed.

Lemma step_idle f w ds bs a ops ok :
  SInv f w ds bs -> idle a (w_open w) = true ->
  Inv (fs_run f ops) ds bs -> chain (Keeps ds bs) f ops -> (w_open w = true -> ops = []) ->
  StepConcl f w ds bs a (w, ops, ok).
Proof.
  intros (HI & Hopen & Hclosed) Ha HI' Hc Hops.
  destruct (idle_spec _ _ Ha) as (Hn & Hs & Hb). exists ds, bs.
  split. { split; [exact HI'|]. split; [|exact Hclosed]. intros Ho. rewrite (Hops Ho). auto. }
  split; [apply prefix_refl|]. split; [apply prefix_refl|]. split; [exact Hc|].
  split; [now rewrite Hn|]. split; [intros _; now rewrite Hs, app_nil_r|].
  intros B _ E. rewrite (Hb B) in E. discriminate.
Qed.

Lemma step_nop f w ds bs a ok :
  SInv f w ds bs -> idle a (w_open w) = true -> StepConcl f w ds bs a (w, [], ok).
Proof.
  intros HS Ha. apply step_idle; auto; [apply HS|]. constructor. apply inv_keeps, HS.
Qed.

(* the shape of every call on an open writer: [submitted true [a]] goes into the buffer (giving
   [w0]), a flush, then only header rewrites, fsyncs and a close ([tl]) *)
Lemma step_flushed f w ds bs a w0 w1 ops1 ok1 tl w' ops ok :
  Flushed f w0 ds bs (w1, ops1, ok1) -> ops1 ++ tl = ops ->
  w_open w = true -> w_open w0 = true -> w_buf w ++ submitted true [a] = w_buf w0 ->
  forallb quiet tl = true ->
  (ok = true -> ok1 = true) -> (is_barrier a = true -> ok = true -> syncs tl = true) ->
  w' = (if is_close a then w_closed else w1) ->
  StepConcl f w ds bs a (w', ops, ok).
Proof.
  intros (bs' & HO & Hp & Ho1 & Hc & Hlog & Hbuf) <- Ho Ho0 Hb0 Hq Hok Hsync ->.
  assert (Hnext : next_open a true = negb (is_close a)) by now destruct a.
  destruct (quiet_run tl _ _ _ _ HO Hq) as [HO' Hc']. rewrite fs_run_app in HO'.
  rewrite <- Hb0, app_assoc in Hlog. unfold StepConcl. rewrite Ho, Hnext.
  exists (if syncs tl then bs' else ds), bs'. split; [|split; [|split; [|split; [|split; [|split]]]]].
  - destruct (is_close a); [|apply sinv_open; [congruence|exact HO']].
    apply sinv_closed. eapply openinv_inv; exact HO'.
  - destruct (syncs tl); [|apply prefix_refl]. destruct HO as (t & HV & _). apply HV.
  - exact Hp.
  - apply chain_app; [exact Hc|]. eapply chain_keeps_mono; [apply prefix_refl|exact Hp|exact Hc'].
  - destruct (is_close a); [reflexivity|simpl; congruence].
  - destruct (is_close a); [|now rewrite app_assoc]. intros Hcl.
    destruct ok; [|discriminate]. rewrite (Hbuf (Hok eq_refl)) in Hlog. now rewrite app_assoc.
  - intros Hb Hk _. rewrite (Hsync Hb Hk). split; [reflexivity|].
    destruct (is_close a); [reflexivity|exact (Hbuf (Hok Hk))].
Qed.

(* NewFileWriterWithName *)
Lemma open_ok f w ds bs :
  SInv f w ds bs -> w_open w = false ->
  StepConcl f w ds bs AOpen (let '(w', ops) := open_file true nlen f in (w', ops, true)).
Proof.
  intros (HI & _ & Hclosed) Ho. assert (HI' := HI). destruct HI' as (Hd & Hv & Hp & Hok).
  assert (Hopened : forall ops ds',
            View (fs_run f ops) ds' bs [] -> prefix ds ds' -> chain (Keeps ds bs) f ops ->
            StepConcl f w ds bs AOpen (mkw true [] (clen (pre ++ bc bs)) false, ops, true)).
  { intros ops1 ds' HV Hp' Hc. exists ds', bs. split; [apply sinv_open; [reflexivity|exists []; auto]|].
    split; [exact Hp'|]. split; [apply prefix_refl|]. split; [exact Hc|]. split; [reflexivity|].
    split; [|discriminate]. intros _. now rewrite (Hclosed Ho). }
  assert (Hcreate : bs = [] ->
            StepConcl f w ds bs AOpen (mkw true [] (pre_len nlen) false, create_ops nlen, true)).
  { intros ->. apply prefix_nil_inv in Hp. subst ds.
    destruct (create_ok f Hd) as (Hc & HV); [now apply inv_keeps|].
    replace (pre_len nlen) with (clen (pre ++ bc [])) by (simpl; now rewrite app_nil_r).
    apply (Hopened _ []); auto using prefix_refl. }
  unfold open_file.
  inversion Hv as [E Hvol|m E Hm Hvol|t Ht Hvol].
  - now apply Hcreate.
  - pose proof (clen_cut_le m pre).
    destruct (N.ltb_spec (clen (cut m pre)) (pre_len nlen)); [|lia].
    now apply Hcreate.
  - assert (HV : View f ds bs t) by (repeat split; auto).
    assert (Hlen : clen (pre ++ bc bs ++ t) = clen (pre ++ bc bs) + clen t).
    { now rewrite app_assoc, clen_app. }
    destruct (N.ltb_spec (clen (pre ++ bc bs ++ t)) (pre_len nlen)) as [Hlt|Hge].
    { unfold pre_len in Hlt. rewrite !clen_app in Hlt. lia. }
    rewrite good_len_full by assumption.
    destruct (N.ltb_spec (clen (pre ++ bc bs)) (clen (pre ++ bc bs ++ t))).
    + assert (HV1 := view_trunc f ds bs t HV). assert (HV2 := view_fsync _ ds bs [] HV1).
      apply (Hopened _ bs); auto.
      constructor; [|constructor; [|constructor]]; eauto using view_keeps.
    + assert (t = []) as -> by (apply torn_clen0; [assumption|lia]).
      apply (Hopened _ ds); auto using prefix_refl.
      constructor. eauto using view_keeps.
Qed.

(* openExistingFile gives up while cutting the torn tail off *)
Lemma openfail_ok f w ds bs c tr :
  SInv f w ds bs -> w_open w = false -> vol f = Some c -> pre_len nlen <= clen c ->
  StepConcl f w ds bs (AOpenFail tr)
    (w, (if tr then [OTrunc (good_len nlen c)] else []) ++ [OClose], false).
Proof.
  intros HS Ho Hvol Hlen.
  destruct (proj1 HS) as (Hd & Hv & Hp & Hok). rewrite Hvol in Hv.
  inversion Hv as [|m E Hm Hc|t Ht Hc]; subst c.
  { exfalso. pose proof (clen_cut_le m pre). lia. }
  rewrite good_len_full by assumption.
  assert (HV : View f ds bs t) by (repeat split; auto).
  assert (HV1 := view_trunc f ds bs t HV).
  apply step_idle; [exact HS|now rewrite Ho| | |congruence]; destruct tr.
  - eapply view_inv; exact HV1.
  - eapply view_inv; exact HV.
  - constructor; [|constructor; [|constructor]]; eauto using view_keeps.
  - constructor; [|constructor]; eauto using view_keeps.
Qed.

Lemma step_ok f w ds bs a :
  SInv f w ds bs -> api_ok a -> StepConcl f w ds bs a (w_step nlen f w a).
Proof.
  intros HS Hapi. unfold w_step, w_step_gen.
  destruct (w_open w) eqn:Ho.
  - (* the writer is open: [step_flushed] with the tail the call issues after the flush; its last
       three premises: the call succeeds only if the flush did; a barrier that succeeds has
       fsynced; the writer returned *)
    assert (HO : OpenInv f w ds bs) by now apply HS.
    destruct a as [e [[sz ff]|]|sz ff|sz ff sok|sz ff sok| |tr]; cbn [negb].
    + (* WriteEntry that flushes *)
      pose proof (flush_ok f (mkw true (w_buf w ++ [e]) (w_end w) (w_dirty w)) ds bs sz ff HO Hapi) as HF.
      destruct (flush true _ sz ff) as [[w1 ops1] ok1].
      eapply step_flushed with (tl := []);
        [eauto using app_nil_r ..|exact (fun H => H)|discriminate|reflexivity].
    + (* WriteEntry that only buffers *)
      exists ds, bs.
      split; [now apply sinv_open|]. split; [apply prefix_refl|]. split; [apply prefix_refl|].
      split; [constructor; eapply openinv_keeps; exact HO|]. split; [now rewrite Ho|].
      split; [intros _; simpl; now rewrite Ho|discriminate].
    + (* Flush *)
      pose proof (flush_ok f w ds bs sz ff HO Hapi) as HF. destruct (flush true w sz ff) as [[w1 ops1] ok1].
      eapply step_flushed with (w0 := w) (tl := []);
        [eauto using app_nil_r ..|exact (fun H => H)|discriminate|reflexivity].
    + (* Sync *)
      pose proof (flush_ok f w ds bs sz ff HO Hapi) as HF.
      destruct (flush true w sz ff) as [[w1 ops1] ok1].
      destruct ok1; [destruct sok|]; cbn [negb].
      * (* the call succeeds, after an fsync *)
        eapply step_flushed with (w0 := w) (tl := [OHdr; OFsync]);
          [eauto using app_nil_r ..|reflexivity|reflexivity|reflexivity].
      * (* the fsync failed, so does the call *)
        eapply step_flushed with (w0 := w) (tl := [OHdr]);
          [eauto using app_nil_r ..|discriminate|discriminate|reflexivity].
      * (* the flush failed, so does the call *)
        eapply step_flushed with (w0 := w) (tl := []);
          [eauto using app_nil_r ..|discriminate|discriminate|reflexivity].
    + (* Close: the same three cases *)
      pose proof (flush_ok f w ds bs sz ff HO Hapi) as HF.
      destruct (flush true w sz ff) as [[w1 ops1] ok1].
      destruct ok1; [destruct sok|]; cbn [negb].
      * eapply step_flushed with (w0 := w) (tl := [OHdr; OFsync; OClose]);
          [eauto using app_nil_r ..|reflexivity|reflexivity|reflexivity].
      * eapply step_flushed with (w0 := w) (tl := [OHdr; OClose]);
          [eauto using app_nil_r ..|discriminate|discriminate|reflexivity].
      * eapply step_flushed with (w0 := w) (tl := [OClose]);
          [eauto using app_nil_r ..|discriminate|discriminate|reflexivity].
    + apply step_nop; [exact HS|now rewrite Ho].
    + apply step_nop; [exact HS|now rewrite Ho].
  - (* the writer is closed *)
    destruct a as [e fl|sz ff|sz ff sok|sz ff sok| |tr]; cbn [negb];
      try (apply step_nop; [exact HS|now rewrite Ho]).
    + (* Open *)
      now apply open_ok.
    + (* Open that fails while cutting the torn tail off *)
      destruct (vol f) as [c|] eqn:Hvol; [|apply step_nop; [exact HS|now rewrite Ho]].
      destruct (pre_len nlen <=? clen c) eqn:Hlen; cbn [andb];
        [destruct (good_len nlen c <? clen c)|]; try (apply step_nop; [exact HS|now rewrite Ho]).
      apply N.leb_le in Hlen. now apply openfail_ok.
Qed.

End WithName.

(* [oks]: the calls' results *)
Fixpoint no_failed_close (h : list api) (oks : list bool) : bool :=
  match h, oks with
  | a :: t, ok :: oks' => negb (is_close a && negb ok) && no_failed_close t oks'
  | _, _ => true
  end.

Section Runs.
Variable nlen : N.

Lemma submitted_cons open a t :
  submitted open (a :: t) = submitted open [a] ++ submitted (next_open a open) t.
Proof. destruct a as [e fl| | | | |]; simpl; try reflexivity. now destruct open. Qed.

Lemma w_run_cons f w a t :
  w_run nlen f w (a :: t) =
  let '(w1, ops, ok) := w_step nlen f w a in
  let '(f2, w2, ops2, oks) := w_run nlen (fs_run f ops) w1 t in
  (f2, w2, ops ++ ops2, ok :: oks).
Proof. reflexivity. Qed.

Lemma w_run_fs h : forall f w f' w' ops oks,
  w_run nlen f w h = (f', w', ops, oks) -> f' = fs_run f ops.
Proof.
  induction h as [|a t IH]; intros f w f' w' ops oks H; [now injection H as <- _ <- _|].
  rewrite w_run_cons in H. destruct (w_step nlen f w a) as [[w1 ops1] ok1].
  destruct (w_run nlen (fs_run f ops1) w1 t) as [[[f2 w2] ops2] oks2] eqn:Hr.
  injection H as <- _ <- _. rewrite <- fs_run_app. eapply IH; exact Hr.
Qed.

Lemma run_ok h : forall f w ds bs f' w' ops oks,
  SInv nlen f w ds bs -> Forall api_ok h -> w_run nlen f w h = (f', w', ops, oks) ->
  exists ds' bs',
    SInv nlen f' w' ds' bs' /\ chain (Keeps nlen ds bs) f ops /\
    (no_failed_close h oks = true ->
       elog_of bs' ++ w_buf w' = elog_of bs ++ w_buf w ++ submitted (w_open w) h).
Proof.
  induction h as [|a t IH]; intros f w ds bs f' w' ops oks HS Hok Hrun.
  - injection Hrun as <- <- <- <-. exists ds, bs. split; [exact HS|]. split.
    + constructor. apply (inv_keeps nlen), HS.
    + intros _. simpl. now rewrite app_nil_r.
  - inversion Hok as [|? ? Ha Ht]; subst. rewrite w_run_cons in Hrun.
    pose proof (step_ok nlen f w ds bs a HS Ha) as Hstep.
    destruct (w_step nlen f w a) as [[w1 ops1] ok1].
    destruct Hstep as (ds1 & bs1 & HS1 & Hd1 & Hb1 & Hc1 & Ho1 & Htr1 & _).
    destruct (w_run nlen (fs_run f ops1) w1 t) as [[[f2 w2] ops2] oks2] eqn:Hrest.
    injection Hrun as <- <- <- <-.
    destruct (IH _ _ _ _ _ _ _ _ HS1 Ht Hrest) as (ds2 & bs2 & HS2 & Hc2 & Htr2).
    exists ds2, bs2. split; [exact HS2|]. split.
    + apply chain_app; [exact Hc1|]. eapply chain_keeps_mono; eauto.
    + intros Hnf. simpl in Hnf. apply andb_true_iff in Hnf as [Hn1 Hn2].
      apply negb_true_iff in Hn1. rewrite (Htr2 Hn2), app_assoc, (Htr1 Hn1).
      now rewrite (submitted_cons _ a t), <- Ho1, <- !app_assoc.
Qed.

Lemma w_run_app h1 : forall h2 f w,
  w_run nlen f w (h1 ++ h2) =
  let '(f1, w1, ops1, oks1) := w_run nlen f w h1 in
  let '(f2, w2, ops2, oks2) := w_run nlen f1 w1 h2 in
  (f2, w2, ops1 ++ ops2, oks1 ++ oks2).
Proof.
  induction h1 as [|a t IH]; intros h2 f w.
  - simpl. now destruct (w_run nlen f w h2) as [[[? ?] ?] ?].
  - simpl app. rewrite 2 w_run_cons. destruct (w_step nlen f w a) as [[w1 ops1] ok1].
    rewrite IH. destruct (w_run nlen (fs_run f ops1) w1 t) as [[[f1 w1'] o1] k1].
    destruct (w_run nlen f1 w1' h2) as [[[f2 w2] o2] k2]. now rewrite <- app_assoc.
Qed.

Lemma run_fs f w h f' w' ops oks :
  SInv nlen f w (loaded_blocks true (dur f)) (loaded_blocks true (vol f)) ->
  Forall api_ok h -> w_run nlen f w h = (f', w', ops, oks) -> f' = fs_run f ops.
Proof. intros _ _. apply w_run_fs. Qed.

(* where histories may start: the empty file system, or the one right after any crash
   ([crash_recovers]) *)
Definition start_ok (f : fs) : Prop :=
  exists ds bs, Inv nlen f ds bs.

Lemma run_from_start f0 h f1 w1 ops oks :
  start_ok f0 -> Forall api_ok h -> w_run nlen f0 w_closed h = (f1, w1, ops, oks) ->
  SInv nlen f1 w1 (loaded_blocks true (dur f1)) (loaded_blocks true (vol f1)) /\
  chain (Keeps nlen (loaded_blocks true (dur f0)) (loaded_blocks true (vol f0))) f0 ops /\
  (no_failed_close h oks = true ->
     elog_of (loaded_blocks true (vol f1)) ++ w_buf w1 =
     elog_of (loaded_blocks true (vol f0)) ++ submitted false h).
Proof.
  intros (ds & bs & HI) Hh Hrun. destruct (inv_blocks nlen _ _ _ HI) as [-> ->].
  destruct (run_ok h _ _ _ _ _ _ _ _ (sinv_closed nlen _ _ _ HI) Hh Hrun)
    as (ds1 & bs1 & HS1 & Hc & Htr).
  destruct (inv_blocks nlen _ _ _ (proj1 HS1)) as [-> ->]. auto.
Qed.

Lemma oplog_prefix_ok f0 h p q :
  start_ok f0 -> Forall api_ok h -> oplog nlen f0 w_closed h = p ++ q ->
  Keeps nlen (loaded_blocks true (dur f0)) (loaded_blocks true (vol f0)) (fs_run f0 p).
Proof.
  intros H0 Hh Hlog. unfold oplog, oplog_gen in Hlog. fold (w_run nlen f0 w_closed h) in Hlog.
  destruct (w_run nlen f0 w_closed h) as [[[f' w'] ops] oks] eqn:Hrun. subst ops.
  destruct (run_from_start _ _ _ _ _ _ H0 Hh Hrun) as (_ & Hc & _).
  exact (chain_prefix _ _ _ Hc p q eq_refl).
Qed.

(* what C02_crash_recovers_flush_boundary (Props/C02.v) claims, for any state that [Keeps]
   ds0, reached by a history or not *)
Lemma crash_recovers ds0 bs0 g img :
  Keeps nlen ds0 bs0 g -> crash_image nlen g img ->
  let D := loaded_blocks true (dur g) in
  let B := loaded_blocks true (vol g) in
  exists cs,
    (recover true img = Some cs \/ (recover true img = None /\ cs = [] /\ D = [])) /\
    prefix D cs /\ prefix cs B /\ prefix ds0 D /\ start_ok (fs_crashed img).
Proof.
  intros (dp & bp & HIp & Hdp & _) Hci.
  destruct (crash_image_shaped nlen _ _ _ _ HIp Hci) as (cs & Hsh & H1 & H2).
  destruct (inv_blocks nlen _ _ _ HIp) as [-> ->].
  assert (Hokcs : blocks_ok cs).
  { destruct H2 as [x ->]. destruct HIp as (_ & _ & _ & Hok). apply Forall_app in Hok. tauto. }
  exists cs. repeat split; auto.
  - destruct (recover_shaped nlen _ _ Hsh) as [E|[E E2]]; [now left|right].
    repeat split; auto. subst cs. now apply prefix_nil_inv in H1.
  - exists cs, cs. repeat split; simpl; auto using prefix_refl.
Qed.

(* likewise C25_stored_data_stays_readable (Props/C25.v) *)
Lemma stays_readable ds0 bs0 g :
  Keeps nlen ds0 bs0 g ->
  let B := loaded_blocks true (vol g) in
  prefix bs0 B /\
  (recover true (vol g) = Some B \/ (recover true (vol g) = None /\ bs0 = [] /\ B = [])).
Proof.
  intros (dp & bp & HIp & _ & Hbp). destruct (inv_blocks nlen _ _ _ HIp) as [_ ->].
  split; [exact Hbp|]. destruct HIp as (_ & Hv & _ & _).
  destruct (recover_shaped nlen _ _ Hv) as [E|[E E2]]; [now left|right].
  repeat split; auto. rewrite E2 in Hbp. now apply prefix_nil_inv in Hbp.
Qed.

(* C02_synced_entries_durable (Props/C02.v) and C25_later_writes_recoverable (Props/C25.v) *)
Theorem synced_entries_durable f0 h f1 w1 ops1 oks1 a w2 ops2 :
  start_ok f0 -> Forall api_ok h -> api_ok a -> is_barrier a = true ->
  w_run nlen f0 w_closed h = (f1, w1, ops1, oks1) -> no_failed_close h oks1 = true ->
  w_open w1 = true -> w_step nlen f1 w1 a = (w2, ops2, true) ->
  let f2 := fs_run f1 ops2 in
  elog_of (loaded_blocks true (dur f2)) =
    elog_of (loaded_blocks true (vol f0)) ++ submitted false h /\
  loaded_blocks true (vol f2) = loaded_blocks true (dur f2) /\
  w_buf w2 = [].
Proof.
  intros H0 Hh Ha Hbar Hrun Hnf Hopen Hstep f2.
  destruct (run_from_start _ _ _ _ _ _ H0 Hh Hrun) as (HS1 & _ & Htr1).
  pose proof (step_ok nlen f1 w1 _ _ a HS1 Ha) as H2. rewrite Hstep in H2.
  destruct H2 as (ds2 & bs2 & HS2 & _ & _ & _ & _ & Htr2 & Hbar2).
  destruct (Hbar2 Hbar eq_refl Hopen) as [-> Hbuf].
  destruct (inv_blocks nlen _ _ _ (proj1 HS2)) as [ED2 EB2]. fold f2 in ED2, EB2.
  rewrite ED2, EB2. repeat split; auto.
  (* a barrier submits nothing and leaves the buffer empty: the file holds what file and
     buffer held before it *)
  assert (Hsub : submitted (w_open w1) [a] = []) by (destruct a; try reflexivity; discriminate).
  specialize (Htr2 ltac:(now destruct a)). rewrite Hbuf, Hsub, !app_nil_r in Htr2.
  now rewrite Htr2, (Htr1 Hnf).
Qed.

End Runs.
