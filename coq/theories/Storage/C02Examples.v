(* Storage/C02Examples.v — concrete histories and crash images: the hypotheses of the C02/C25
   theorems are satisfiable by non-trivial states, and the repaired writer and reader do on
   them what the theorems say (by computation; the same inputs are replayed on the real code
   by the harness). *)
From HV Require Import Base.Prelude Storage.C02Fs Storage.C02Writer Storage.C02Crash
  Storage.C02Proofs Storage.C02WriterProofs.
Local Open Scope N_scope.

Definition ex_b1 : block := mkblock [(1, Some 10)] 5.
Definition ex_b2 : block := mkblock [(2, Some 20)] 7.

(* open, write k1 (flushes a 5-byte block), sync, write k2 (flushes a 7-byte block) *)
Definition ex_h : list api :=
  [AOpen; AWrite (1, Some 10) (Some (5, FFok)); ASync 1 FFok true; AWrite (2, Some 20) (Some (7, FFok))].

(* crash while the payload of the second block is being written: 3 of its 7 bytes made it *)
Definition ex_p : list fsop := firstn 10 (oplog 0 fs_empty w_closed ex_h).
Definition ex_img : option content := Some (cut 104 (match vol (fs_run fs_empty ex_p) with Some c => c | None => [] end)).

Example ex_hyps_ok : Forall api_ok ex_h.
Proof. repeat constructor; vm_compute; intuition discriminate. Qed.

Example ex_split : oplog 0 fs_empty w_closed ex_h = ex_p ++ [OHdr].
Proof. vm_compute. reflexivity. Qed.

Example ex_is_crash_image : crash_image 0 (fs_run fs_empty ex_p) ex_img.
Proof.
  right. exists 104. eexists. split; [vm_compute; discriminate|]. split; vm_compute; reflexivity.
Qed.

(* the repaired reader recovers exactly the synced block from the torn image ... *)
Example ex_tolerant_recovers : recover true ex_img = Some [ex_b1].
Proof. vm_compute. reflexivity. Qed.

(* ... and after reopening (truncation), appending and closing, both old and new data load *)
Example ex_append_after_recovery :
  let '(f2, _, _, oks) := w_run 0 (fs_crashed ex_img) w_closed
                            [AOpen; AWrite (3, Some 30) (Some (4, FFok)); AClose 1 FFok true] in
  state_of (loaded_blocks true (dur f2)) = [(1, 10); (3, 30)] /\ oks = [true; true; true].
Proof. vm_compute. split; reflexivity. Qed.

(* C25: a block write that stops after 20 of 23 bytes; the fault clears; a later write and a
   clean Close *)
Definition ex_fault_h : list api :=
  [AOpen; AWrite (1, Some 10) (Some (5, FFok)); AWrite (2, Some 20) (Some (7, FFshort 20));
   AWrite (3, Some 30) (Some (4, FFok)); AClose 1 FFok true].

Example ex_fault_hyps_ok : Forall api_ok ex_fault_h.
Proof. repeat constructor; vm_compute; intuition discriminate. Qed.

(* repaired writer: everything submitted is in the file (the entry of the failed block goes
   out with the next flush).  The history evaluated is not [ex_fault_h]: its third block, which
   now carries two entries, has payload 9 instead of 4.  [api_ok] asks of a payload size only
   that it is at least 1, so this history meets it as [ex_fault_h] does ([ex_fault_hyps_ok] is
   about [ex_fault_h], which is also what the writer before the repair is run on). *)
Example ex_fault_repaired :
  let '(f2, _, _, oks) := w_run 0 fs_empty w_closed
        [AOpen; AWrite (1, Some 10) (Some (5, FFok)); AWrite (2, Some 20) (Some (7, FFshort 20));
         AWrite (3, Some 30) (Some (9, FFok)); AClose 1 FFok true] in
  state_of (loaded_blocks true (dur f2)) = [(1, 10); (2, 20); (3, 30)] /\
  oks = [true; true; false; true; true].
Proof. vm_compute. split; reflexivity. Qed.

(* a short block write whose truncation back fails too (the tail stays in the file), a flush
   that still cannot remove it, then the fault clears: the next flush cuts the tail off first
   and everything submitted is stored *)
Definition ex_dirty_h : list api :=
  [AOpen; AWrite (1, Some 10) (Some (5, FFok)); AWrite (2, Some 20) (Some (7, FFshortDirty 20));
   AWrite (3, Some 30) (Some (9, FFpre)); AWrite (4, Some 40) (Some (11, FFok)); AClose 1 FFok true].

Example ex_dirty_hyps_ok : Forall api_ok ex_dirty_h.
Proof. repeat constructor; vm_compute; intuition discriminate. Qed.

Example ex_dirty_tail_repaired :
  let '(f2, _, ops, oks) := w_run 0 fs_empty w_closed ex_dirty_h in
  state_of (loaded_blocks true (dur f2)) = [(1, 10); (2, 20); (3, 30); (4, 40)] /\
  oks = [true; true; false; false; true; true] /\
  canon_log ops = [(1, 0); (2, 64); (2, 16); (2, 5); (3, 64); (2, 16); (2, 4);
                   (4, 85); (2, 16); (2, 11); (3, 64); (3, 64); (5, 0); (6, 0)].
Proof. vm_compute. repeat split; reflexivity. Qed.
