(* Storage/C02Proofs.v — the file images of C02Fs.v: what the reader and the writer's scan make
   of complete blocks and a torn tail, the invariant [Inv] over the durable and the volatile
   image, and that every crash image (C02Crash.v) of an invariant state is well-shaped again. *)
From HV Require Import Base.Prelude Storage.C02Fs Storage.C02Crash.
From Coq Require Import Lia.
Local Open Scope N_scope.

Arguments N.eqb : simpl never.
Arguments N.leb : simpl never.
Arguments N.ltb : simpl never.
Arguments N.sub : simpl never.
Arguments N.add : simpl never.

Ltac flia := unfold FH, BH in *; lia.

Definition cpos (c : content) : Prop := Forall (fun p => 1 <= snd p) c.
Definition blocks_ok (bs : list block) : Prop := Forall (fun b => 1 <= b_plen b) bs.
Definition prefix {A} (l1 l2 : list A) : Prop := exists x, l2 = l1 ++ x.

Lemma prefix_refl {A} (l : list A) : prefix l l.
Proof. exists []. now rewrite app_nil_r. Qed.

Lemma prefix_trans {A} (a b c : list A) : prefix a b -> prefix b c -> prefix a c.
Proof. intros [x ->] [y ->]. exists (x ++ y). now rewrite app_assoc. Qed.

Lemma prefix_nil {A} (l : list A) : prefix [] l.
Proof. now exists l. Qed.

Lemma prefix_app {A} (a x : list A) : prefix a (a ++ x).
Proof. now exists x. Qed.

Lemma prefix_nil_inv {A} (l : list A) : prefix l [] -> l = [].
Proof. intros [x Hx]. symmetry in Hx. now apply app_eq_nil in Hx. Qed.

Lemma clen_app a b : clen (a ++ b) = clen a + clen b.
Proof. induction a as [|[s h] a IH]; simpl; [lia|]. rewrite IH. lia. Qed.

Lemma cut_0 c : cut 0 c = [].
Proof. destruct c as [|[s h] t]; reflexivity. Qed.

Lemma cut_nil k : cut k [] = [].
Proof. reflexivity. Qed.

Lemma cut_cons k s h t :
  cut k ((s, h) :: t) =
  if k =? 0 then [] else if h <=? k then (s, h) :: cut (k - h) t else [(s, k)].
Proof. reflexivity. Qed.

Lemma cut_all c k : cpos c -> clen c <= k -> cut k c = c.
Proof.
  revert k; induction c as [|[s h] t IH]; intros k Hp Hk; [reflexivity|].
  inversion Hp as [|? ? Hh Ht]; subst. simpl in Hh, Hk. rewrite cut_cons.
  destruct (N.eqb_spec k 0); [lia|]. destruct (N.leb_spec h k); [|lia].
  f_equal. apply IH; [assumption|lia].
Qed.

Lemma cut_app_le a b k : k <= clen a -> cut k (a ++ b) = cut k a.
Proof.
  revert k; induction a as [|[s h] a IH]; intros k Hk; simpl in Hk.
  - assert (k = 0) by lia. subst. now rewrite !cut_0.
  - simpl app. rewrite !cut_cons. destruct (N.eqb_spec k 0); [reflexivity|].
    destruct (N.leb_spec h k); [|reflexivity]. f_equal. apply IH. lia.
Qed.

Lemma cut_app_ge a b k : cpos a -> clen a <= k -> cut k (a ++ b) = a ++ cut (k - clen a) b.
Proof.
  revert k; induction a as [|[s h] a IH]; intros k Hp Hk.
  - simpl. f_equal. lia.
  - inversion Hp as [|? ? Hh Ht]; subst. simpl in Hh, Hk. simpl app. rewrite cut_cons.
    destruct (N.eqb_spec k 0); [lia|]. destruct (N.leb_spec h k); [|lia].
    f_equal. rewrite IH by (assumption || lia). f_equal. f_equal. simpl. lia.
Qed.

Lemma clen_cut_le k c : clen (cut k c) <= k.
Proof.
  revert k; induction c as [|[s h] t IH]; intros k; [simpl; lia|].
  rewrite cut_cons. destruct (N.eqb_spec k 0); [simpl; lia|].
  destruct (N.leb_spec h k); simpl; [|lia]. specialize (IH (k - h)). lia.
Qed.

Lemma cut_cut_le k m c : k <= m -> cut k (cut m c) = cut k c.
Proof.
  revert k m; induction c as [|[s h] t IH]; intros k m Hkm; [reflexivity|].
  rewrite (cut_cons m), (cut_cons k).
  destruct (N.eqb_spec k 0) as [->|Hk]; [apply cut_0|]. destruct (N.eqb_spec m 0); [lia|].
  destruct (N.leb_spec h m); rewrite cut_cons; (destruct (N.eqb_spec k 0); [lia|]).
  - destruct (N.leb_spec h k); [|reflexivity]. f_equal. apply IH. lia.
  - destruct (N.leb_spec h k); [lia|]. destruct (N.leb_spec m k); [|reflexivity].
    now replace m with k by lia.
Qed.

Lemma cut_cut_ge k m c : m <= k -> cut k (cut m c) = cut m c.
Proof.
  revert k m; induction c as [|[s h] t IH]; intros k m Hkm; [reflexivity|].
  rewrite (cut_cons m). destruct (N.eqb_spec m 0); [reflexivity|].
  destruct (N.leb_spec h m); rewrite cut_cons; (destruct (N.eqb_spec k 0); [lia|]).
  - destruct (N.leb_spec h k); [|lia]. f_equal. apply IH. lia.
  - destruct (N.leb_spec m k); [reflexivity|lia].
Qed.

Lemma cut_cut k m c : cut k (cut m c) = cut (N.min k m) c.
Proof.
  destruct (N.min_spec k m) as [[H ->]|[H ->]]; [apply cut_cut_le; lia|now apply cut_cut_ge].
Qed.

Lemma bc_app a b : bc (a ++ b) = bc a ++ bc b.
Proof. unfold bc. now rewrite flat_map_app. Qed.

Lemma bc_cons b bs : bc (b :: bs) = bseg b ++ bc bs.
Proof. reflexivity. Qed.

Lemma clen_bseg b : clen (bseg b) = BH + b_plen b.
Proof. simpl. lia. Qed.

Lemma cpos_bseg b : 1 <= b_plen b -> cpos (bseg b).
Proof. intros Hb. repeat constructor; simpl; flia. Qed.

Lemma cpos_bc bs : blocks_ok bs -> cpos (bc bs).
Proof.
  induction 1 as [|b bs Hb _ IH]; [constructor|].
  rewrite bc_cons. apply Forall_app. split; [now apply cpos_bseg|exact IH].
Qed.

(* what may stand behind the last complete block (a complete header without a payload byte
   is a [torn_bh]); the reader takes each for the end of the log *)
Inductive torn : content -> Prop :=
| torn_nil : torn []
| torn_bh : forall b h, 1 <= h <= BH -> torn [(SBh b, h)]
| torn_pl : forall b b' h, 1 <= h < b_plen b -> torn [(SBh b, BH); (SPl b', h)].

Lemma torn_clen0 t : torn t -> clen t = 0 -> t = [].
Proof. intros Ht; inversion Ht; subst; simpl; intros; [reflexivity| |]; flia. Qed.

Lemma torn_cut_bseg b k : k < BH + b_plen b -> torn (cut k (bseg b)).
Proof.
  intros Hk. unfold bseg. rewrite cut_cons. destruct (N.eqb_spec k 0); [constructor|].
  destruct (N.leb_spec BH k); [|constructor; lia].
  rewrite cut_cons. destruct (N.eqb_spec (k - BH) 0); [constructor; flia|].
  destruct (N.leb_spec (b_plen b) (k - BH)); [lia|]. constructor. lia.
Qed.

Lemma torn_cut t k : torn t -> torn (cut k t).
Proof.
  intros Ht; inversion Ht as [|b h Hh|b b' h Hh]; subst.
  - constructor.
  - rewrite cut_cons. destruct (N.eqb_spec k 0); [constructor|].
    destruct (N.leb_spec h k); [rewrite cut_nil; now constructor|]. constructor. lia.
  - rewrite cut_cons. destruct (N.eqb_spec k 0); [constructor|].
    destruct (N.leb_spec BH k); [|constructor; lia].
    rewrite cut_cons. destruct (N.eqb_spec (k - BH) 0); [constructor; flia|].
    destruct (N.leb_spec h (k - BH)); [rewrite cut_nil; now constructor|]. constructor. lia.
Qed.

Lemma parse_bseg tol b c :
  parse_blocks tol (bseg b ++ c) =
  match parse_blocks tol c with Some bs => Some (b :: bs) | None => None end.
Proof. simpl. now rewrite N.eqb_refl. Qed.

Lemma good_blocks_len_bseg b c :
  good_blocks_len (bseg b ++ c) = BH + b_plen b + good_blocks_len c.
Proof. simpl. now rewrite N.eqb_refl. Qed.

Lemma parse_torn t : torn t -> parse_blocks true t = Some [].
Proof.
  intros Ht; inversion Ht as [|b h Hh|b b' h Hh]; subst; simpl.
  - reflexivity.
  - destruct (N.ltb_spec h BH); reflexivity.
  - destruct (N.ltb_spec BH BH); [lia|]. destruct (N.eqb_spec h (b_plen b)); [lia|]. reflexivity.
Qed.

Lemma good_blocks_len_torn t : torn t -> good_blocks_len t = 0.
Proof.
  intros Ht; inversion Ht as [|b h Hh|b b' h Hh]; subst; simpl; try reflexivity.
  destruct (N.eqb_spec BH BH); [|lia]. destruct (N.eqb_spec h (b_plen b)); [lia|]. reflexivity.
Qed.

Lemma parse_bc_torn bs t : torn t -> parse_blocks true (bc bs ++ t) = Some bs.
Proof.
  intros Ht. induction bs as [|b bs IH]; [now apply parse_torn|].
  now rewrite bc_cons, <- app_assoc, parse_bseg, IH.
Qed.

Lemma good_blocks_len_bc bs t : torn t -> good_blocks_len (bc bs ++ t) = clen (bc bs).
Proof.
  intros Ht. induction bs as [|b bs IH]; [now apply good_blocks_len_torn|].
  now rewrite bc_cons, <- app_assoc, good_blocks_len_bseg, IH, clen_app, clen_bseg.
Qed.

Lemma cut_bc bs t k :
  blocks_ok bs -> torn t ->
  exists cs t', torn t' /\ cut k (bc bs ++ t) = bc cs ++ t' /\ prefix cs bs /\
                (forall ds, prefix ds bs -> clen (bc ds) <= k -> prefix ds cs).
Proof.
  intros Hok Ht. revert k. induction Hok as [|b bs Hb Hok IH]; intros k.
  - exists [], (cut k t). split; [now apply torn_cut|]. split; [reflexivity|].
    split; [apply prefix_refl|]. now intros ds Hds _.
  - rewrite bc_cons, <- app_assoc. destruct (N.lt_ge_cases k (BH + b_plen b)) as [Hlt|Hge].
    + exists [], (cut k (bseg b)). split; [now apply torn_cut_bseg|].
      split; [apply cut_app_le; rewrite clen_bseg; lia|]. split; [apply prefix_nil|].
      intros [|b' ds] [x E] Hc; [apply prefix_nil|].
      injection E as <- _. rewrite bc_cons, clen_app, clen_bseg in Hc. lia.
    + destruct (IH (k - clen (bseg b))) as (cs & t' & Ht' & Hcut & Hcs & Hmax).
      exists (b :: cs), t'. split; [exact Ht'|].
      split.
      { rewrite cut_app_ge, Hcut by (auto using cpos_bseg || now rewrite clen_bseg).
        now rewrite bc_cons, <- app_assoc. }
      split; [destruct Hcs as [x ->]; now exists x|].
      intros [|b' ds] [x E] Hc; [apply prefix_nil|]. injection E as <- E.
      rewrite bc_cons, clen_app in Hc.
      destruct (Hmax ds) as [y ->]; [now exists x|lia|now exists y].
Qed.

Section WithName.
Variable nlen : N.

Lemma pre_cases :
  (nlen = 0 /\ pre nlen = [(SHdr nlen, FH)]) \/
  (1 <= nlen /\ pre nlen = [(SHdr nlen, FH); (SName nlen, nlen)]).
Proof. unfold pre. destruct (N.eqb_spec nlen 0); [left|right]; split; auto; lia. Qed.

Lemma cpos_pre : cpos (pre nlen).
Proof.
  destruct pre_cases as [[_ ->]|[H ->]]; repeat constructor; simpl; unfold FH; lia.
Qed.

Lemma read_pre tol rest : read_file tol (pre nlen ++ rest) = parse_blocks tol rest.
Proof.
  destruct pre_cases as [[Hn ->]|[Hn ->]]; simpl.
  - destruct (N.ltb_spec FH FH); [lia|]. destruct (N.eqb_spec nlen 0); [reflexivity|lia].
  - destruct (N.ltb_spec FH FH); [lia|]. destruct (N.eqb_spec nlen 0); [lia|].
    destruct (N.ltb_spec nlen nlen); [lia|reflexivity].
Qed.

Lemma read_short tol m : m < pre_len nlen -> read_file tol (cut m (pre nlen)) = None.
Proof.
  intros Hm. unfold pre_len in Hm.
  destruct pre_cases as [[Hn E]|[Hn E]]; rewrite E in *; simpl in Hm; rewrite cut_cons.
  - destruct (N.eqb_spec m 0); [reflexivity|]. destruct (N.leb_spec FH m); [flia|].
    simpl. destruct (N.ltb_spec m FH); [reflexivity|flia].
  - destruct (N.eqb_spec m 0); [reflexivity|]. destruct (N.leb_spec FH m) as [H1|H1].
    + rewrite cut_cons. destruct (N.eqb_spec (m - FH) 0).
      * simpl. destruct (N.ltb_spec FH FH); [flia|]. destruct (N.eqb_spec nlen 0); [flia|reflexivity].
      * destruct (N.leb_spec nlen (m - FH)); [flia|].
        simpl. destruct (N.ltb_spec FH FH); [flia|]. destruct (N.eqb_spec nlen 0); [flia|].
        destruct (N.ltb_spec (m - FH) nlen); [reflexivity|flia].
    + simpl. destruct (N.ltb_spec m FH); [reflexivity|flia].
Qed.

Opaque pre.

(* [bs = []] is a premise, not an index, so that inversion leaves an equation about the
   parameter *)
Inductive shaped (bs : list block) : option content -> Prop :=
| sh_none : bs = [] -> shaped bs None
| sh_short : forall m, bs = [] -> m < pre_len nlen -> shaped bs (Some (cut m (pre nlen)))
| sh_full : forall t, torn t -> shaped bs (Some (pre nlen ++ bc bs ++ t)).

Lemma recover_shaped bs img : shaped bs img ->
  recover true img = Some bs \/ (recover true img = None /\ bs = []).
Proof.
  intros H; inversion H as [E|m E Hm|t Ht]; subst; unfold recover.
  - now left.
  - right. now rewrite read_short.
  - left. now rewrite read_pre, parse_bc_torn.
Qed.

Lemma loaded_shaped bs img : shaped bs img -> loaded_blocks true img = bs.
Proof.
  intros H. unfold loaded_blocks. now destruct (recover_shaped _ _ H) as [->|[-> ->]].
Qed.

Lemma shaped_cut_pre m : shaped [] (Some (cut m (pre nlen))).
Proof.
  destruct (N.lt_ge_cases m (pre_len nlen)) as [Hlt|Hge]; [now apply sh_short|].
  rewrite cut_all by (apply cpos_pre || exact Hge).
  rewrite <- (app_nil_r (pre nlen)). apply (sh_full [] []). constructor.
Qed.

Lemma good_len_full bs t : torn t -> good_len nlen (pre nlen ++ bc bs ++ t) = clen (pre nlen ++ bc bs).
Proof.
  intros Ht. unfold good_len. rewrite !clen_app.
  destruct (N.ltb_spec (clen (pre nlen) + (clen (bc bs) + clen t)) (pre_len nlen)) as [H|H].
  - unfold pre_len in H. lia.
  - rewrite skipn_app, skipn_all, Nat.sub_diag. cbn [skipn app]. now rewrite good_blocks_len_bc.
Qed.

Lemma good_len_short m : m < pre_len nlen -> good_len nlen (cut m (pre nlen)) = 0.
Proof.
  intros Hm. unfold good_len. pose proof (clen_cut_le m (pre nlen)).
  destruct (N.ltb_spec (clen (cut m (pre nlen))) (pre_len nlen)); [reflexivity|lia].
Qed.

Lemma good_len_opt_shaped ds d : shaped ds d ->
  ds = [] \/ good_len_opt nlen d = pre_len nlen + clen (bc ds).
Proof.
  intros H; inversion H as [E|m E Hm|t Ht]; subst; [now left|now left|right].
  cbn [good_len_opt]. rewrite good_len_full, clen_app by assumption. reflexivity.
Qed.

Definition Inv (f : fs) (ds bs : list block) : Prop :=
  shaped ds (dur f) /\ shaped bs (vol f) /\ prefix ds bs /\ blocks_ok bs.

Lemma inv_blocks f ds bs : Inv f ds bs ->
  loaded_blocks true (dur f) = ds /\ loaded_blocks true (vol f) = bs.
Proof. intros (Hd & Hv & _ & _). split; now apply loaded_shaped. Qed.

Lemma crash_image_shaped f ds bs img :
  Inv f ds bs -> crash_image nlen f img ->
  exists cs, shaped cs img /\ prefix ds cs /\ prefix cs bs.
Proof.
  intros (Hd & Hv & Hpre & Hok) [->|(k & c & Hk & Hvol & ->)].
  - exists ds. auto using prefix_refl.
  - rewrite Hvol in Hv. inversion Hv as [|m E Hm|t Ht]; subst.
    + (* volatile file has an incomplete header area: no block anywhere *)
      apply prefix_nil_inv in Hpre as ->.
      exists []. split; [|split; apply prefix_refl]. rewrite cut_cut. apply shaped_cut_pre.
    + destruct (N.lt_ge_cases k (pre_len nlen)) as [Hlt|Hge].
      * (* the cut falls into the header area: then nothing was durable *)
        assert (ds = []) as ->.
        { destruct (good_len_opt_shaped _ _ Hd) as [E|E]; [exact E|]. lia. }
        exists []. split; [|split; [apply prefix_refl|apply prefix_nil]].
        rewrite cut_app_le by (unfold pre_len in Hlt; lia). apply shaped_cut_pre.
      * unfold pre_len in Hge. rewrite cut_app_ge by (apply cpos_pre || exact Hge).
        destruct (cut_bc bs t (k - clen (pre nlen)) Hok Ht) as (cs & t' & Ht' & -> & Hcs & Hmax).
        exists cs. split; [now apply sh_full|]. split; [|exact Hcs].
        apply Hmax; [exact Hpre|].
        destruct (good_len_opt_shaped _ _ Hd) as [->|E]; [simpl|unfold pre_len in E]; lia.
Qed.

End WithName.
