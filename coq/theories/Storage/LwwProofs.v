(* Storage/LwwProofs.v — the replay fold of LoadIndex computes the last-writer-wins map. *)
From HV Require Import Base.Prelude Storage.Lww.
Local Open Scope N_scope.

Section LwwProofs.
Variables (K D : Type) (keqb : K -> K -> bool).
Hypothesis keqb_spec : forall a b, keqb a b = true <-> a = b.

Notation mget := (mget K D keqb).
Notation mdel := (mdel K D keqb).
Notation mset := (mset K D keqb).
Notation replay := (replay K D keqb).
Notation lww_get := (lww_get K D keqb).

Lemma keqb_refl a : keqb a a = true.
Proof. now apply keqb_spec. Qed.

Lemma mget_mdel k m k' : mget (mdel k m) k' = if keqb k k' then None else mget m k'.
Proof.
  induction m as [|[k0 d0] m IH]; simpl.
  - now destruct (keqb k k').
  - destruct (keqb k0 k) eqn:E0.
    + apply keqb_spec in E0; subst k0. rewrite IH. now destruct (keqb k k').
    + simpl. destruct (keqb k0 k') eqn:E1.
      * apply keqb_spec in E1; subst k0. destruct (keqb k k') eqn:E2; [|reflexivity].
        apply keqb_spec in E2; subst k'. now rewrite keqb_refl in E0.
      * exact IH.
Qed.

Lemma mget_mset k d m k' : mget (mset k d m) k' = if keqb k k' then Some d else mget m k'.
Proof.
  unfold Lww.mset. simpl. destruct (keqb k k') eqn:E; [reflexivity|].
  rewrite mget_mdel, E. reflexivity.
Qed.

Lemma lww_get_snoc h k' v k : lww_get (h ++ [(k', v)]) k = if keqb k' k then v else lww_get h k.
Proof. unfold Lww.lww_get. now rewrite rev_unit. Qed.

Theorem replay_lww es k : mget (replay es) k = lww_get (writes_of K D es) k.
Proof.
  induction es as [|e es IH] using rev_ind; [reflexivity|].
  unfold Lww.replay, writes_of in *. rewrite fold_left_app, flat_map_app.
  cbn [fold_left flat_map]. rewrite app_nil_r. revert IH.
  generalize (fold_left (apply_entry K D keqb) es []) as m, (flat_map (write_of K D) es) as h.
  intros m h IH. unfold apply_entry, write_of.
  destruct (N.eqb (l_op e) 3).
  - now rewrite lww_get_snoc, mget_mdel, IH.
  - destruct (N.eqb (l_op e) 1 || N.eqb (l_op e) 2).
    + now rewrite lww_get_snoc, mget_mset, IH.
    + rewrite app_nil_r. exact IH.
Qed.

Lemma mkeys_mdel k m : mkeys K D (mdel k m) = filter (fun x => negb (keqb x k)) (mkeys K D m).
Proof.
  induction m as [|[k0 d0] m IH]; simpl; [reflexivity|].
  destruct (keqb k0 k); simpl; now rewrite IH.
Qed.

Theorem replay_nodup es : NoDup (mkeys K D (replay es)).
Proof.
  apply (fold_left_inv (fun m => NoDup (mkeys K D m))); [|constructor].
  intros m e _ IH. unfold apply_entry.
  destruct (N.eqb (l_op e) 3); [rewrite mkeys_mdel; now apply NoDup_filter|].
  destruct (N.eqb (l_op e) 1 || N.eqb (l_op e) 2); [|exact IH].
  unfold Lww.mset. simpl. rewrite mkeys_mdel. constructor; [|now apply NoDup_filter].
  rewrite filter_In, keqb_refl. now intros [_ [=]].
Qed.

(* "and nothing else": a key is present exactly when its last write is a set *)
Corollary replay_keys es k :
  In k (mkeys K D (replay es)) <-> exists d, lww_get (writes_of K D es) k = Some d.
Proof.
  rewrite <- replay_lww. generalize (replay es) as m. intro m.
  induction m as [|[k0 d0] m IH]; simpl.
  - split; [tauto | intros [d Hd]; discriminate].
  - destruct (keqb k0 k) eqn:E.
    + apply keqb_spec in E; subst. split; [intros _; now exists d0 | now left].
    + rewrite <- IH. split; [intros [H|H]; [subst; now rewrite keqb_refl in E | exact H] | now right].
Qed.

End LwwProofs.
