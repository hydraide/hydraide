(* Storage/ChronProofs.v — the chronicler (ChronV2.v) is a client of the writer: every history
   of Write/Sync/Close calls performs a run of the writer model, writing the entries of its
   treasures, and it opens the file under no name but its own.  With the replay theorem for a
   fresh file this gives the chronicler theorem of Props/C01.v.  Which treasures are
   acknowledged (the third component of write_all) is not the subject here. *)
From HV Require Import Base.Prelude Storage.Lww Storage.Writer Storage.WriterProofs Storage.ChronV2.
Local Open Scope N_scope.

Section Chron.
Variables (K D NM : Type).
Variables (klen : K -> N) (dlen : D -> N) (nmlen : NM -> N).
Variable cfits : list (lentry K D) -> bool.
Variable guard : bool.
Variable dnil : D.

Notation run := (run K D NM klen dlen nmlen cfits guard).
Notation step := (step K D NM klen dlen nmlen cfits guard).
Notation write_all := (write_all K D NM klen dlen nmlen cfits guard dnil).
Notation cstep := (cstep K D NM klen dlen nmlen cfits guard dnil).
Notation crun := (crun K D NM klen dlen nmlen cfits guard dnil).
Notation entry_of := (entry_of K D dnil).

(* entries the chronicler submits for a batch, in order *)
Definition batch_entries (ts : list (treasure K D * bool)) : list (lentry K D) :=
  flat_map (fun p => match entry_of (fst p) with Some e => [e] | None => [] end) ts.

(* a batch is a run of writes: it never opens *)
Lemma write_all_run ts : forall st st' tr acks,
  write_all st ts = (st', tr, acks) ->
  run st (map fst tr) = (st', map snd tr) /\ flat_map ents (map fst tr) = batch_entries ts /\
  first_open K D NM (map fst tr) = None.
Proof.
  induction ts as [|[t fl] ts IH]; intros st st' tr acks; cbn [ChronV2.write_all].
  - now intros [= <- <- <-].
  - unfold batch_entries. cbn [flat_map fst]. destruct (entry_of t) as [e|].
    + destruct (step st (OWrite e fl)) as [st1 res] eqn:E1.
      destruct (write_all st1 ts) as [[st2 tr2] a2] eqn:E2. intros [= <- <- <-].
      destruct (IH _ _ _ _ E2) as (Hr & He & Ho).
      cbn [map fst snd Writer.run flat_map ents app first_open].
      rewrite E1, Hr, He. auto.
    + destruct (write_all st ts) as [[st2 tr2] a2] eqn:E2. intros [= <- <- <-].
      exact (IH _ _ _ _ E2).
Qed.

Definition cop_entries (c : cop K D) : list (lentry K D) :=
  match c with CWrite ts => batch_entries ts | _ => [] end.

(* every chronicler call is a run of the writer; if all writer calls succeeded, the entries
   written are exactly those of the treasures; the only name it ever opens under is its own *)
Lemma cstep_run name st c st' tr acks :
  cstep name st c = (st', tr, acks) ->
  run st (map fst tr) = (st', map snd tr) /\
  (all_ok (map snd tr) = true -> flat_map ents (map fst tr) = cop_entries c) /\
  (forall n, first_open K D NM (map fst tr) = Some n -> n = name).
Proof.
  destruct c as [ts| |]; cbn [ChronV2.cstep cop_entries].
  - destruct ts as [|p ts]; [now intros [= <- <- <-]|].
    destruct (s_w st) eqn:Ew.
    + intros (Hr & He & Ho)%write_all_run. rewrite Ho. now auto.
    + destruct (step st (OOpen name)) as [st1 r] eqn:E1. destruct r.
      * destruct (write_all st1 (p :: ts)) as [[st2 tr2] a2] eqn:E2. intros [= <- <- <-].
        destruct (write_all_run _ _ _ _ _ E2) as (Hr & He & _).
        cbn [map fst snd Writer.run flat_map ents app first_open]. rewrite E1, Hr.
        split; [reflexivity|]. split; [auto | now intros n [= <-]].
      * intros [= <- <- <-]. cbn [map fst snd Writer.run first_open]. rewrite E1.
        split; [reflexivity|]. split; [discriminate | now intros n [= <-]].
  - destruct (s_w st); [|now intros [= <- <- <-]].
    destruct (step st OSync) as [st1 r] eqn:E1. intros [= <- <- <-].
    cbn [map fst snd Writer.run]. now rewrite E1.
  - destruct (s_w st); [|now intros [= <- <- <-]].
    destruct (step st OClose) as [st1 r] eqn:E1. intros [= <- <- <-].
    cbn [map fst snd Writer.run]. now rewrite E1.
Qed.

Lemma crun_trace name cs : forall st st' tr acks,
  crun name st cs = (st', tr, acks) ->
  run st (map fst tr) = (st', map snd tr) /\
  (all_ok (map snd tr) = true -> flat_map ents (map fst tr) = flat_map cop_entries cs) /\
  (forall n, first_open K D NM (map fst tr) = Some n -> n = name).
Proof.
  induction cs as [|c cs IH]; intros st st' tr acks; cbn [ChronV2.crun].
  - now intros [= <- <- <-].
  - destruct (cstep name st c) as [[st1 tr1] a1] eqn:E1.
    destruct (crun name st1 cs) as [[st2 tr2] a2] eqn:E2. intros [= <- <- <-].
    destruct (cstep_run _ _ _ _ _ _ E1) as (Hr1 & He1 & Ho1), (IH _ _ _ _ E2) as (Hr2 & He2 & Ho2).
    rewrite !map_app. split; [exact (run_app Hr1 Hr2)|]. split.
    + unfold all_ok at 1. rewrite forallb_app. intros [H1 H2]%andb_true_iff.
      cbn [flat_map]. now rewrite flat_map_app, He1, He2.
    + intro n. rewrite first_open_app. destruct (first_open K D NM (map fst tr1)); auto.
Qed.

Lemma batch_writes ts :
  writes_of K D (batch_entries ts) = flat_map (fun p => twrite K D (fst p)) ts.
Proof.
  unfold batch_entries, writes_of. induction ts as [|[t fl] ts IH]; [reflexivity|].
  cbn [flat_map fst]. rewrite flat_map_app, IH. f_equal.
  unfold ChronV2.entry_of, twrite. destruct (t_deleted t); [reflexivity|].
  destruct (t_enc t); [|reflexivity]. cbn. destruct (t_hasfile t); reflexivity.
Qed.

End Chron.

Arguments crun_trace {K D NM klen dlen nmlen cfits guard dnil name cs st st' tr acks}.

Definition cop_writes {K D} (c : cop K D) : list (wr K D) :=
  match c with CWrite ts => flat_map (fun p => twrite K D (fst p)) ts | _ => [] end.

Lemma cop_entries_writes {K D} dnil (cs : list (cop K D)) :
  writes_of K D (flat_map (cop_entries K D dnil) cs) = flat_map cop_writes cs.
Proof.
  unfold writes_of. induction cs as [|c cs IH]; [reflexivity|].
  cbn [flat_map]. rewrite flat_map_app, IH. f_equal.
  destruct c; [apply batch_writes | reflexivity | reflexivity].
Qed.
