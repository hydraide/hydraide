(* Storage/SwampNameProofs.v — C29: what the fast name lookup and the explorer scan return on the
   bytes of a well-formed V3 or legacy V2 file (runs of the writer are in C29Proofs.v); the
   listing is exactly the set of scanned names; paging. *)
From HV Require Import Base.Prelude Storage.Format Storage.FormatProofs
  Storage.Writer Storage.WriterProofs Storage.Reader Storage.ReaderProofs Storage.SwampName.
Local Open Scope N_scope.

Section NameProofs.
Variable compress : list N -> list N.
Variable decompress : list N -> option (list N).
Variable crc : list N -> N.
Hypothesis decompress_compress : forall x, decompress (compress x) = Some x.

Notation bfile := (lfile (list N) (list N) (list N)).
Notation cfits := (Reader.cfits compress).
Notation wf_file := (wf_file (list N) (list N) (list N) nlen nlen cfits).
Notation render := (render compress crc).
Notation read_swamp_name := (read_swamp_name decompress crc).
Notation read_prefix := (read_prefix decompress crc).
Notation scan_name := (scan_name decompress crc).
Notation scan_file := (scan_file decompress crc).
Notation scan_directory := (scan_directory decompress crc).

Definition entries_of (f : bfile) : list entry := concat (map (map to_entry) (f_blocks f)).

(* V3: what NameLength covers of the name after the header, whatever the blocks are (no block
   is looked at) *)
Lemma read_swamp_name_v3_any hm f :
  f_ver f = Version3 ->
  read_swamp_name (render hm f) = Some (firstn (N.to_nat (nlen (f_name f) mod two16)) (f_name f)).
Proof.
  intro Hv. unfold SwampName.read_swamp_name.
  rewrite open_reader_any by auto.
  rewrite seen_ver, seen_namelen. unfold stored_name. now rewrite Hv.
Qed.

Theorem read_swamp_name_v3 hm f :
  f_ver f = Version3 -> nlen (f_name f) < two16 ->
  read_swamp_name (render hm f) = Some (f_name f).
Proof.
  intros Hv Hn. rewrite read_swamp_name_v3_any, N.mod_small by assumption.
  now rewrite to_nat_nlen, firstn_all.
Qed.

(* V2: the metadata-entry fallback of LoadIndex *)
Theorem read_swamp_name_v2 hm f :
  f_ver f = Version2 -> wf_file f ->
  read_swamp_name (render hm f) = Some (meta_name (entries_of f)).
Proof.
  intros Hv Hwf. assert (Hvo : ver_ok f) by now left. unfold SwampName.read_swamp_name.
  rewrite open_reader_ok, load_index_render by assumption.
  rewrite seen_ver. unfold stored_name. now rewrite Hv.
Qed.

Lemma meta_name_app a b : meta_name a <> [] -> meta_name (a ++ b) = meta_name a.
Proof.
  induction a as [|e a IH]; cbn [meta_name app]; [intro H; now contradiction H|].
  destruct (_ && _ && _); [reflexivity | exact IH].
Qed.

(* the same for the other first-match search, by the same proof *)
Lemma scan_meta_app a b : scan_meta a <> [] -> scan_meta (a ++ b) = scan_meta a.
Proof.
  induction a as [|e a IH]; cbn [scan_meta app]; [intro H; now contradiction H|].
  destruct (_ && _); [reflexivity | exact IH].
Qed.

(* where ReadAllBlocks reaches EOF, ReadAllEntries has handed over the same blocks *)
Lemma read_prefix_done fuel : forall buf bs,
  read_blocks decompress crc fuel buf = RDone bs -> read_prefix fuel buf = bs.
Proof.
  induction fuel as [|fu IH]; intros buf bs; cbn [read_blocks SwampName.read_prefix]; [discriminate|].
  destruct (take BlockHeaderSize buf) as [[hb rest]|]; [|now intros [= <-]].
  destruct (deser_bh hb) as [h|]; [|discriminate].
  destruct (take (bh_csize h) rest) as [[c rest']|]; [|destruct rest; now intros [= <-]].
  destruct (parse_block decompress crc h c) as [es|]; [|discriminate].
  destruct (read_blocks decompress crc fu rest') as [bs'| |] eqn:E; try discriminate.
  intros [= <-]. now rewrite (IH _ _ E).
Qed.

(* the explorer's name: V3 name if non-empty, else the first metadata entry *)
Theorem scan_name_render hm f :
  ver_ok f -> wf_file f ->
  scan_name (render hm f) =
  Some (match stored_name f with [] => scan_meta (entries_of f) | nm => nm end).
Proof.
  intros Hv Hwf. unfold SwampName.scan_name.
  rewrite open_reader_ok, skip_to_blocks by assumption.
  destruct (stored_name f) as [|b nm]; [|reflexivity].
  erewrite read_prefix_done; [reflexivity|].
  apply read_blocks_wf; auto using fuel_enough.
Qed.

Definition slash_free (l : list N) : Prop := ~ In slash l.

Lemma slash_free_cons x l : slash_free (x :: l) -> N.eqb x slash = false /\ slash_free l.
Proof.
  intro H. split; [apply N.eqb_neq; intro E; apply H; now left | intro Hin; apply H; now right].
Qed.

Lemma split1_app a r : slash_free a -> split1 (a ++ slash :: r) = Some (a, r).
Proof.
  induction a as [|x a IH]; intro H; cbn [app split1]; [now rewrite N.eqb_refl|].
  apply slash_free_cons in H as [-> H]. now rewrite IH.
Qed.

Theorem split3_parts a b c :
  slash_free a -> slash_free b -> split3 (a ++ slash :: b ++ slash :: c) = Some (a, b, c).
Proof. intros Ha Hb. unfold split3. rewrite (split1_app a _ Ha), (split1_app b _ Hb). reflexivity. Qed.

Lemma split1_none l : slash_free l -> split1 l = None.
Proof.
  induction l as [|x l IH]; intro H; cbn [split1]; [reflexivity|].
  apply slash_free_cons in H as [-> H]. now rewrite IH.
Qed.

Lemma triple_eqb_eq x y : triple_eqb x y = true <-> x = y.
Proof.
  destruct x as [[a b] c], y as [[a' b'] c']. unfold triple_eqb. cbn.
  rewrite !andb_true_iff, !bytes_eqb_eq. split; [intros [[-> ->] ->]; reflexivity | intro H; inversion H; auto].
Qed.

Lemma idx_add_in idx t x : In x (idx_add idx t) <-> In x idx \/ x = t.
Proof.
  unfold idx_add. destruct (existsb (triple_eqb t) idx) eqn:E.
  - split; [now left|]. intros [H|H]; [exact H|]. subst.
    apply existsb_exists in E as (y & Hy & Heq). apply triple_eqb_eq in Heq. now subst.
  - rewrite in_app_iff. cbn. split; intros [H|H]; auto. destruct H as [H|[]]; auto.
Qed.

Lemma idx_add_nodup idx t : NoDup idx -> NoDup (idx_add idx t).
Proof.
  intro H. unfold idx_add. destruct (existsb (triple_eqb t) idx) eqn:E; [exact H|].
  apply (NoDup_Add (Add_app t idx [])). rewrite app_nil_r. split; [exact H|]. intro Hx.
  assert (existsb (triple_eqb t) idx = true); [|congruence].
  apply existsb_exists. exists t. split; [exact Hx | now apply triple_eqb_eq].
Qed.

(* scanDirectory from any index: what was there plus what the files give *)
Lemma scan_in t files : forall idx,
  In t (fold_left (fun idx f => match scan_file f with Some t => idx_add idx t | None => idx end) files idx)
  <-> In t idx \/ Exists (fun f => scan_file f = Some t) files.
Proof.
  induction files as [|f files IH]; intro idx; cbn [fold_left].
  - split; [now left | now intros [H|H%Exists_nil]].
  - rewrite IH, Exists_cons. destruct (scan_file f) as [x|].
    + rewrite idx_add_in, or_assoc. apply or_iff_compat_l, or_iff_compat_r.
      split; [now intros -> | now intros [= ->]].
    + apply or_iff_compat_l. split; [now right | now intros [[=]|H]].
Qed.

Theorem listing_exact files t :
  (In t (scan_directory files) <-> exists f, In f files /\ scan_file f = Some t) /\
  NoDup (scan_directory files).
Proof.
  unfold SwampName.scan_directory. split.
  - rewrite scan_in, Exists_exists. cbn [In]. tauto.
  - apply fold_left_inv; [|constructor].
    intros idx f _ H. destruct (scan_file f); auto using idx_add_nodup.
Qed.

End NameProofs.

(* consecutive pages tile the listing: nothing is skipped, nothing shown twice *)
Theorem page_split {A} (off lim : nat) (l : list A) :
  skipn off l = page off lim l ++ skipn (off + lim) l.
Proof. unfold page. now rewrite (Nat.add_comm off), <- skipn_skipn, firstn_skipn. Qed.

Theorem pages_tile {A} (n off lim : nat) (l : list A) :
  skipn off l = pages n off lim l ++ skipn (off + n * lim) l.
Proof.
  revert off; induction n as [|n IH]; intro off; cbn [pages].
  - cbn. now rewrite Nat.add_0_r.
  - rewrite (page_split off lim l) at 1. rewrite (IH (off + lim)%nat).
    rewrite app_assoc. f_equal. f_equal. cbn. lia.
Qed.
