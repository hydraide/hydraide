(* Storage/FormatProofs.v — round trips of the byte codecs of Format.v.  Headers are not asked
   to fit their fields: they read back truncated to the field widths ([trunc_bh], [trunc_fh]),
   the form ReaderProofs works with. *)
From HV Require Import Base.Prelude Storage.Format.
Local Open Scope N_scope.

Lemma nlen_app {A} (a b : list A) : nlen (a ++ b) = nlen a + nlen b.
Proof. unfold nlen. rewrite app_length. lia. Qed.

Lemma nlen_cons {A} (x : A) l : nlen (x :: l) = 1 + nlen l.
Proof. unfold nlen. cbn [length]. lia. Qed.

Lemma nlen_nil {A} : nlen (@nil A) = 0.
Proof. reflexivity. Qed.

Lemma to_nat_nlen {A} (l : list A) : N.to_nat (nlen l) = length l.
Proof. apply Nat2N.id. Qed.

Lemma nlen_le k n : nlen (le k n) = N.of_nat k.
Proof.
  unfold nlen. f_equal. revert n; induction k as [|k IH]; intro n; cbn [le length]; [reflexivity | now rewrite IH].
Qed.

Lemma unle_le k n : unle (le k n) = n mod (256 ^ N.of_nat k).
Proof.
  revert n; induction k as [|k IH]; intro n.
  - simpl. now rewrite N.mod_1_r.
  - cbn [le unle]. rewrite IH. rewrite Nat2N.inj_succ, N.pow_succ_r'.
    rewrite N.mod_mul_r; [reflexivity | lia | apply N.pow_nonzero; lia].
Qed.

(* the length as an equation: [rewrite take_app by ...] then matches whatever literal the
   deserializer asks for *)
Lemma take_app n (a b : bytes) : n = nlen a -> take n (a ++ b) = Some (a, b).
Proof.
  intros ->. unfold take. rewrite nlen_app.
  destruct (nlen a + nlen b <? nlen a) eqn:E; [apply N.ltb_lt in E; lia|].
  rewrite to_nat_nlen, firstn_len_app, skipn_len_app. reflexivity.
Qed.

Lemma take_within n (a b : bytes) :
  n <= nlen a -> take n (a ++ b) = Some (firstn (N.to_nat n) a, skipn (N.to_nat n) a ++ b).
Proof.
  intro H. rewrite <- (firstn_skipn (N.to_nat n) a) at 1. rewrite <- app_assoc.
  apply take_app. unfold nlen in *. rewrite firstn_length. lia.
Qed.

Lemma take_0 (l : bytes) : take 0 l = Some ([], l).
Proof. exact (take_app 0 [] l eq_refl). Qed.

Lemma take_short n (l : bytes) : nlen l < n -> take n l = None.
Proof. intro H. unfold take. apply N.ltb_lt in H. now rewrite H. Qed.

Lemma take_some n l a b : take n l = Some (a, b) -> l = a ++ b /\ nlen a = n.
Proof.
  unfold take. destruct (nlen l <? n) eqn:E; [discriminate|].
  intro H; inversion H; subst. split; [now rewrite firstn_skipn|].
  apply N.ltb_ge in E. unfold nlen in *. rewrite firstn_length. lia.
Qed.

Lemma bytes_eqb_eq a b : bytes_eqb a b = true <-> a = b.
Proof.
  replace (bytes_eqb a b) with (list_eqb N.eqb a b); [apply list_eqb_eq, N.eqb_eq|].
  revert b; induction a as [|x a IH]; intros [|y b]; cbn [list_eqb bytes_eqb]; try reflexivity.
  now rewrite IH.
Qed.

Lemma bytes_eqb_refl a : bytes_eqb a a = true.
Proof. now apply bytes_eqb_eq. Qed.

(* left transparent, [cbn] and [simpl] unfold these into the nested comparisons of the
   deserializers *)
Global Opaque take.
Arguments le : simpl never.
Arguments unle : simpl never.

Definition wf_entry (e : entry) : Prop :=
  1 <= nlen (e_key e) /\ nlen (e_key e) < two16 /\ nlen (e_data e) < two32.

Lemma ser_entry_len e : nlen (ser_entry e) = entry_size e.
Proof. unfold ser_entry, entry_size. rewrite !nlen_app, !nlen_le, nlen_cons, nlen_nil. lia. Qed.

Theorem entry_roundtrip e r : wf_entry e -> deser_entry (ser_entry e ++ r) = Some (e, r).
Proof.
  intros (Hk1 & Hk2 & Hd). unfold deser_entry.
  rewrite nlen_app, ser_entry_len. unfold entry_size, ser_entry. destruct e as [op key data].
  cbn [e_op e_key e_data] in *. repeat rewrite <- app_assoc.
  rewrite (proj2 (N.ltb_ge _ _)) by lia.
  rewrite (take_app 1 [op]) by reflexivity.
  rewrite take_app by now rewrite nlen_le.
  rewrite unle_le, N.mod_small by exact Hk2.
  rewrite (proj2 (N.ltb_ge _ _)) by lia.
  rewrite take_app by reflexivity.
  (* Deserialize's test for the empty key (ErrEmptyKey) *)
  destruct key as [|k0 key']; [rewrite nlen_nil in Hk1; lia|].
  rewrite take_app by now rewrite nlen_le.
  rewrite unle_le, N.mod_small by exact Hd.
  rewrite (proj2 (N.ltb_ge _ _)) by lia.
  rewrite take_app by reflexivity.
  reflexivity.
Qed.

Theorem entries_roundtrip es r :
  Forall wf_entry es -> parse_entries (length es) (ser_entries es ++ r) = Some es.
Proof.
  induction es as [|e es IH]; intro H; [reflexivity|].
  inversion H as [|? ? He Hes]; subst.
  unfold ser_entries in *. cbn [length map concat parse_entries].
  rewrite <- app_assoc, (entry_roundtrip e _ He), (IH Hes). reflexivity.
Qed.

(* Deserialize answers ErrEmptyKey: to the empty key and to every key of a multiple of 65536 bytes *)
Theorem deser_entry_key_wraps e r :
  nlen (e_key e) mod two16 = 0 -> deser_entry (ser_entry e ++ r) = None.
Proof.
  intro Hk. unfold deser_entry.
  rewrite nlen_app, ser_entry_len. unfold entry_size, ser_entry. repeat rewrite <- app_assoc.
  rewrite (proj2 (N.ltb_ge _ _)) by lia.
  rewrite (take_app 1 [e_op e]) by reflexivity.
  rewrite take_app by now rewrite nlen_le.
  rewrite unle_le. change (256 ^ N.of_nat 2) with two16. rewrite Hk.
  rewrite (proj2 (N.ltb_ge _ _)) by lia.
  rewrite take_0.
  reflexivity.
Qed.

Lemma parse_entries_key_wraps pre e post r n :
  Forall wf_entry pre -> nlen (e_key e) mod two16 = 0 ->
  parse_entries (length pre + S n) (ser_entries (pre ++ e :: post) ++ r) = None.
Proof.
  intros Hpre He. unfold ser_entries.
  induction Hpre as [|p pre Hp _ IH]; cbn [length Nat.add app map concat parse_entries];
    rewrite <- app_assoc.
  - now rewrite deser_entry_key_wraps.
  - now rewrite entry_roundtrip, IH.
Qed.

Definition wf_bh (h : bheader) : Prop :=
  bh_csize h < two32 /\ bh_usize h < two32 /\ bh_count h < two16 /\ bh_crc h < two32 /\ bh_flags h < two16.

Definition trunc_bh (h : bheader) : bheader :=
  mkBH (bh_csize h mod two32) (bh_usize h mod two32) (bh_count h mod two16) (bh_crc h mod two32) (bh_flags h mod two16).

Lemma ser_bh_len h : nlen (ser_bh h) = 16.
Proof. unfold ser_bh. repeat rewrite nlen_app. repeat rewrite nlen_le. reflexivity. Qed.

Theorem bh_roundtrip_trunc h : deser_bh (ser_bh h) = Some (trunc_bh h).
Proof.
  unfold deser_bh, ser_bh. rewrite <- (app_nil_r (le 2 (bh_flags h))).
  rewrite !take_app by now rewrite nlen_le.
  rewrite !unle_le. reflexivity.
Qed.

Lemma pad_len k l : length (pad k l) = k.
Proof. unfold pad. rewrite firstn_length, app_length, repeat_length. lia. Qed.

Lemma pad_exact k l : length l = k -> pad k l = l.
Proof.
  intros <-. unfold pad. now rewrite firstn_len_app.
Qed.

Lemma nlen_pad k l : nlen (pad k l) = N.of_nat k.
Proof. unfold nlen. now rewrite pad_len. Qed.

Lemma ser_fh_len h : nlen (ser_fh h) = 64.
Proof. unfold ser_fh. now rewrite !nlen_app, !nlen_le, nlen_pad. Qed.

Definition trunc_fh (h : fheader) : fheader :=
  mkFH (fh_version h) (fh_flags h mod two16) (fh_created h mod two64) (fh_modified h mod two64)
       (fh_blocksize h mod two32) (fh_entrycount h mod two64) (fh_blockcount h mod two64)
       (if N.eqb (fh_version h) Version3 then fh_namelen h mod two16 else 0)
       (pad 14 (fh_reserved h)).

Theorem fh_roundtrip h :
  fh_version h = Version2 \/ fh_version h = Version3 ->
  deser_fh (ser_fh h) = Some (trunc_fh h).
Proof.
  intro Hv. unfold deser_fh, ser_fh. rewrite <- (app_nil_r [0; 0; 0; 0]).
  rewrite take_app by reflexivity. rewrite bytes_eqb_refl. cbn [negb].
  rewrite take_app by now rewrite nlen_le.
  rewrite unle_le.
  replace (fh_version h mod 256 ^ N.of_nat 2) with (fh_version h)
    by (destruct Hv as [-> | ->]; reflexivity).
  replace ((fh_version h =? Version2) || (fh_version h =? Version3)) with true
    by (destruct Hv as [-> | ->]; reflexivity).
  cbn [negb].
  rewrite !take_app by now rewrite ?nlen_le, ?nlen_pad.
  rewrite !unle_le. reflexivity.
Qed.
