(* Storage/ReaderProofs.v — the reader on rendered files.  Each step is stated for any block
   and any name length: the round trip of a well-formed file and the files that do not load (a
   length that wrapped in its uint16 field) come from the same lemmas. *)
From HV Require Import Base.Prelude Storage.Format Storage.FormatProofs Storage.Lww
  Storage.Writer Storage.WriterProofs Storage.Reader.
Local Open Scope N_scope.

Section ReaderProofs.
Variable compress : list N -> list N.
Variable decompress : list N -> option (list N).
Variable crc : list N -> N.
Hypothesis decompress_compress : forall x, decompress (compress x) = Some x.

Notation bent := (lentry (list N) (list N)).
Notation bfile := (lfile (list N) (list N) (list N)).
Notation cfits := (Reader.cfits compress).
Notation wfe := (wfe (list N) (list N) nlen nlen).
Notation wf_block := (wf_block (list N) (list N) nlen nlen cfits).
Notation wf_file := (wf_file (list N) (list N) (list N) nlen nlen cfits).
Notation render_block := (render_block compress crc).
Notation block_header := (block_header compress crc).
Notation block_payload := (block_payload compress).
Notation render := (render compress crc).
Notation parse_block := (parse_block decompress crc).
Notation read_blocks := (read_blocks decompress crc).
Notation read_file := (read_file decompress crc).
Notation load_index := (load_index decompress crc).

Lemma of_to_entry e : of_entry (to_entry e) = e.
Proof. now destruct e. Qed.

Lemma map_of_to es : map of_entry (map to_entry es) = es.
Proof. rewrite map_map. rewrite <- (map_id es) at 2. apply map_ext. exact of_to_entry. Qed.

Lemma of_to_blocks (bs : list (list bent)) : map of_entry (concat (map (map to_entry) bs)) = concat bs.
Proof.
  induction bs as [|b bs IH]; cbn [map concat]; [reflexivity|].
  now rewrite map_app, map_of_to, IH.
Qed.

Lemma wfe_wf_entry e : wfe e -> wf_entry (to_entry e).
Proof.
  unfold WriterProofs.wfe, encodable, wf_entry, MaxKeySize. cbn [to_entry e_key e_data].
  intro H. apply andb_true_iff in H as [H H3]. apply andb_true_iff in H as [H1 H2].
  apply N.leb_le in H1, H2. apply N.ltb_lt in H3. unfold two16. lia.
Qed.

Lemma parse_block_any b :
  parse_block (trunc_bh (block_header b)) (block_payload b) =
  parse_entries (N.to_nat (nlen b mod two16)) (ser_entries (map to_entry b)).
Proof.
  unfold Reader.parse_block, Reader.block_header, Reader.block_payload, trunc_bh.
  cbn [bh_crc bh_usize bh_count].
  now rewrite N.eqb_refl, decompress_compress, N.eqb_refl.
Qed.

Lemma parse_block_wf b :
  wf_block b ->
  parse_block (trunc_bh (block_header b)) (block_payload b) = Some (map to_entry b).
Proof.
  intros (_ & Hok & Hall). apply andb_true_iff in Hok as [Hcnt _]. apply N.leb_le in Hcnt.
  rewrite parse_block_any, N.mod_small by (unfold MaxEntriesPerBlock, two16 in *; lia).
  rewrite to_nat_nlen, <- (map_length to_entry b), <- (app_nil_r (ser_entries _)).
  apply entries_roundtrip, Forall_map, (Forall_impl _ wfe_wf_entry), Hall.
Qed.

Lemma read_block_any fu b rest :
  nlen (block_payload b) < two32 ->
  read_blocks (S fu) (render_block b ++ rest) =
  match parse_block (trunc_bh (block_header b)) (block_payload b) with
  | None => RFail
  | Some es => match read_blocks fu rest with RDone bs => RDone (es :: bs) | r => r end
  end.
Proof.
  intro Hfit. cbn [Reader.read_blocks]. unfold Reader.render_block. rewrite <- app_assoc.
  rewrite take_app by now rewrite ser_bh_len.
  rewrite bh_roundtrip_trunc.
  replace (bh_csize (trunc_bh (block_header b))) with (nlen (block_payload b))
    by (symmetry; apply N.mod_small, Hfit).
  now rewrite take_app.
Qed.

Lemma wf_block_fits b : wf_block b -> nlen (block_payload b) < two32.
Proof.
  intros (_ & Hok & _). apply andb_true_iff in Hok as [_ Hfit].
  apply andb_true_iff in Hfit as [_ Hfit]. now apply N.ltb_lt.
Qed.

Lemma read_blocks_wf bs :
  Forall wf_block bs -> forall fuel, (length bs < fuel)%nat ->
  read_blocks fuel (concat (map render_block bs)) = RDone (map (map to_entry) bs).
Proof.
  induction 1 as [|b bs Hb _ IH]; intros [|fu] Hfuel; try (exfalso; lia); cbn [map concat].
  - cbn [Reader.read_blocks]. now rewrite take_short.
  - rewrite read_block_any by exact (wf_block_fits b Hb).
    rewrite parse_block_wf by exact Hb. rewrite IH by (cbn in Hfuel; lia). reflexivity.
Qed.

Lemma render_blocks_len bs : (length bs <= length (concat (map render_block bs)))%nat.
Proof.
  induction bs as [|b bs IH]; cbn [map concat length]; [lia|].
  rewrite app_length. unfold Reader.render_block at 1. rewrite app_length.
  pose proof (ser_bh_len (block_header b)) as H. unfold nlen in H. lia.
Qed.

Definition seen_header (hm : hmeta) (f : bfile) : fheader := trunc_fh (file_header hm f).

Definition ver_ok (f : bfile) : Prop :=
  (f_ver f = Version2) \/ (f_ver f = Version3 /\ nlen (f_name f) < two16).

(* N.succ MaxNameSize is two16 by computation *)
Lemma name_fits n : n <= MaxNameSize <-> n < two16.
Proof. symmetry. exact (N.lt_succ_r n MaxNameSize). Qed.

Lemma name_long n : two16 <= n <-> MaxNameSize < n.
Proof. exact (N.le_succ_l MaxNameSize n). Qed.

Definition stored_name (f : bfile) : list N := if N.eqb (f_ver f) Version3 then f_name f else [].

Lemma seen_ver hm f : fh_version (seen_header hm f) = f_ver f.
Proof. reflexivity. Qed.
Lemma seen_namelen hm f : fh_namelen (seen_header hm f) = nlen (stored_name f) mod two16.
Proof.
  unfold seen_header, trunc_fh, file_header, stored_name. cbn [fh_version fh_namelen].
  now destruct (N.eqb (f_ver f) Version3).
Qed.

Lemma seen_namelen_le hm f : fh_namelen (seen_header hm f) <= nlen (stored_name f).
Proof. rewrite seen_namelen. now apply N.mod_le. Qed.

Lemma ver_ok_version f : ver_ok f -> f_ver f = Version2 \/ f_ver f = Version3.
Proof. intros [Hv|[Hv _]]; auto. Qed.

Lemma seen_namelen_ok hm f : ver_ok f -> fh_namelen (seen_header hm f) = nlen (stored_name f).
Proof.
  intro Hv. rewrite seen_namelen. apply N.mod_small. unfold stored_name.
  destruct Hv as [->|[-> Hn]]; [reflexivity | exact Hn].
Qed.

Lemma open_reader_any hm f :
  f_ver f = Version2 \/ f_ver f = Version3 ->
  open_reader (render hm f) =
  Some (seen_header hm f, firstn (N.to_nat (fh_namelen (seen_header hm f))) (stored_name f)).
Proof.
  intro Hv. unfold open_reader, Reader.render. fold (stored_name f).
  rewrite take_app by now rewrite ser_fh_len.
  rewrite fh_roundtrip by exact Hv. fold (seen_header hm f).
  destruct (N.eqb (fh_version _) Version3 && (0 <? fh_namelen (seen_header hm f))) eqn:E.
  - now rewrite take_within by apply seen_namelen_le.
  - (* V2 (no stored name) or NameLength = 0: firstn gives [] too *)
    f_equal. f_equal. rewrite seen_namelen. rewrite seen_namelen, seen_ver in E. unfold stored_name in E |- *.
    destruct (N.eqb (f_ver f) Version3); [|reflexivity].
    apply N.ltb_ge, N.le_0_r in E. now rewrite E.
Qed.

Lemma data_area_any hm f :
  skipn (N.to_nat (data_start (seen_header hm f))) (render hm f) =
  skipn (N.to_nat (fh_namelen (seen_header hm f))) (stored_name f)
  ++ concat (map render_block (f_blocks f)).
Proof.
  unfold Reader.render. fold (stored_name f).
  replace (data_start (seen_header hm f)) with (FileHeaderSize + fh_namelen (seen_header hm f)).
  2:{ unfold data_start. rewrite seen_namelen, seen_ver. unfold stored_name.
      destruct (N.eqb (f_ver f) Version3); [reflexivity | now rewrite N.add_0_r]. }
  rewrite N.add_comm, N2Nat.inj_add, <- skipn_skipn.
  replace (N.to_nat FileHeaderSize) with (length (ser_fh (file_header hm f)))
    by (rewrite <- to_nat_nlen; now rewrite ser_fh_len).
  rewrite skipn_len_app, skipn_app.
  pose proof (seen_namelen_le hm f) as Hle. rewrite <- (to_nat_nlen (stored_name f)).
  now replace (_ - _)%nat with 0%nat by lia.
Qed.

Lemma open_reader_ok hm f :
  ver_ok f -> open_reader (render hm f) = Some (seen_header hm f, stored_name f).
Proof.
  intro Hv. rewrite open_reader_any, seen_namelen_ok by auto using ver_ok_version.
  now rewrite to_nat_nlen, firstn_all.
Qed.

Lemma skip_to_blocks hm f :
  ver_ok f ->
  skipn (N.to_nat (data_start (seen_header hm f))) (render hm f) = concat (map render_block (f_blocks f)).
Proof.
  intro Hv. rewrite data_area_any, seen_namelen_ok by auto using ver_ok_version.
  now rewrite to_nat_nlen, skipn_all.
Qed.

Lemma fuel_enough hm f : (length (f_blocks f) < S (length (render hm f)))%nat.
Proof.
  pose proof (render_blocks_len (f_blocks f)). unfold Reader.render. rewrite !app_length. lia.
Qed.

Lemma read_file_render hm f :
  ver_ok f ->
  read_file (render hm f) =
  match read_blocks (S (length (render hm f))) (concat (map render_block (f_blocks f))) with
  | RDone bs => Some (seen_header hm f, stored_name f, bs)
  | _ => None
  end.
Proof. intro Hv. unfold Reader.read_file, read_all. now rewrite open_reader_ok, skip_to_blocks. Qed.

Theorem file_roundtrip hm f :
  ver_ok f -> wf_file f ->
  read_file (render hm f) = Some (seen_header hm f, stored_name f, map (map to_entry) (f_blocks f)).
Proof.
  intros Hv Hwf. now rewrite read_file_render, read_blocks_wf by auto using fuel_enough.
Qed.

Lemma load_index_read_file file :
  load_index file =
  match read_file file with
  | Some (_, nm, bs) =>
    Some (replay (list N) (list N) bytes_eqb (map of_entry (concat bs)),
          match nm with [] => meta_name (concat bs) | _ => nm end)
  | None => None
  end.
Proof.
  unfold Reader.load_index, Reader.read_file. destruct (open_reader file) as [[h nm]|]; [|reflexivity].
  now destruct (read_all decompress crc file h).
Qed.

Theorem load_index_render hm f :
  ver_ok f -> wf_file f ->
  load_index (render hm f) =
  Some (replay (list N) (list N) bytes_eqb (concat (f_blocks f)),
        match stored_name f with
        | [] => meta_name (concat (map (map to_entry) (f_blocks f)))
        | nm => nm
        end).
Proof.
  intros Hv Hwf. rewrite load_index_read_file, file_roundtrip, of_to_blocks by assumption.
  now destruct (stored_name f).
Qed.

Theorem load_index_key_wraps hm f pre e post bs :
  ver_ok f -> f_blocks f = (pre ++ e :: post) :: bs ->
  Forall wfe pre -> nlen (l_key e) mod two16 = 0 ->
  nlen (pre ++ e :: post) < two16 -> nlen (block_payload (pre ++ e :: post)) < two32 ->
  load_index (render hm f) = None.
Proof.
  intros Hv Hbs Hpre He Hcnt Hfit.
  rewrite load_index_read_file, read_file_render, Hbs by exact Hv. cbn [map concat].
  rewrite read_block_any, parse_block_any, N.mod_small by assumption.
  rewrite to_nat_nlen, app_length, <- (map_length to_entry pre).
  rewrite map_app, <- (app_nil_r (ser_entries _)). cbn [map length].
  rewrite parse_entries_key_wraps; [reflexivity | | exact He].
  apply Forall_map, (Forall_impl _ wfe_wf_entry), Hpre.
Qed.

(* 0 <: with no payload byte at all the loop ends as at EOF *)
Lemma read_blocks_short_payload fu hb h rest :
  nlen hb = BlockHeaderSize -> deser_bh hb = Some h -> 0 < nlen rest < bh_csize h ->
  read_blocks (S fu) (hb ++ rest) = RFail.
Proof.
  intros Hhb Hh [Hne Hshort]. cbn [Reader.read_blocks].
  rewrite take_app, Hh, take_short by auto.
  destruct rest; [now apply N.lt_irrefl in Hne | reflexivity].
Qed.

(* NameLength is stored as 0, so the reader takes the name bytes for the first block; here
   their first 16 bytes, read as a block header, announce more payload than the file has *)
Theorem load_index_name_wraps hm f hb tl h :
  f_ver f = Version3 -> nlen (f_name f) mod two16 = 0 -> f_name f = hb ++ tl ->
  nlen hb = BlockHeaderSize -> deser_bh hb = Some h ->
  0 < nlen (tl ++ concat (map render_block (f_blocks f))) < bh_csize h ->
  load_index (render hm f) = None.
Proof.
  intros Hv Hw Hnm Hhb Hh Hshort. unfold Reader.load_index, read_all.
  rewrite open_reader_any, data_area_any, seen_namelen by auto.
  unfold stored_name. rewrite Hv. cbn [N.eqb Version3 Pos.eqb]. rewrite Hw. cbn [N.to_nat skipn].
  rewrite Hnm, <- app_assoc. now rewrite (read_blocks_short_payload _ hb h).
Qed.

End ReaderProofs.
