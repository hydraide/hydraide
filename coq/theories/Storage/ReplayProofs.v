(* Storage/ReplayProofs.v — writer, reader and Lww composed ([replay_lww_from], stated from any
   state of the invariant so that Props/C01.v gets both the fresh and the existing file from it);
   the inputs on which it fails for the writer of the pinned commit (guard = false). *)
From HV Require Import Base.Prelude Storage.Format Storage.FormatProofs Storage.Lww Storage.LwwProofs
  Storage.Writer Storage.WriterProofs Storage.Reader Storage.ReaderProofs.
Local Open Scope N_scope.

Notation B := (list N) (only parsing).
Notation bop := (wop (list N) (list N) (list N)).

Definition brun (compress : B -> B) (guard : bool) :=
  run B B B nlen nlen nlen (Reader.cfits compress) guard.

Definition bwrites (ops : list bop) : list (wr B B) := writes_of B B (flat_map ents ops).

Section Replay.
Variable compress : B -> B.
Variable decompress : B -> option B.
Variable crc : B -> N.
Hypothesis decompress_compress : forall x, decompress (compress x) = Some x.

Notation load_index := (load_index decompress crc).
Notation render := (render compress crc).

Lemma inv_init : Inv B B B nlen nlen (Reader.cfits compress) (@init B B B).
Proof. exact I. Qed.

Theorem replay_lww_from hm st0 (ops : list bop) st' rs f :
  Inv B B B nlen nlen (Reader.cfits compress) st0 ->
  brun compress true st0 ops = (st', rs) -> all_ok rs = true ->
  s_w st' = None -> s_file st' = Some f -> ver_ok f ->
  exists m nm,
    load_index (render hm f) = Some (m, nm) /\
    (forall k, mget B B bytes_eqb m k =
               lww_get B B bytes_eqb (writes_of B B (log st0 ++ flat_map ents ops)) k) /\
    NoDup (mkeys B B m) /\
    (f_ver f = Version3 -> f_name f <> [] -> nm = f_name f).
Proof.
  intros HI0 Hrun Hok Hw Hf Hvo.
  destruct (run_spec Hrun) as [[HI _] HL].
  rewrite <- (HL Hok), (closed_log Hw Hf).
  rewrite (load_index_render compress decompress crc decompress_compress hm f Hvo)
    by exact (Inv_wf_file (HI HI0) Hf).
  do 2 eexists. split; [reflexivity|].
  split; [intro k; apply replay_lww, bytes_eqb_eq|]. split; [apply replay_nodup, bytes_eqb_eq|].
  unfold stored_name. intros -> Hne. cbn. now destruct (f_name f).
Qed.

End Replay.

Definition idc (x : B) : B := x.
Definition idd (x : B) : option B := Some x.
Definition crc0 (x : B) : N := nlen x.     (* any function will do *)
Definition hm0 : hmeta := mkHM 0 1 1 16384 [].

Definition bytes_n (n : N) (b : N) : B := N.iter n (cons b) [].

Definition final_bytes (guard : bool) (ops : list bop) : option B :=
  match brun idc guard init ops with
  | (st, rs) => match s_file st with
                | Some f => if all_ok rs then Some (render idc crc0 hm0 f) else None
                | None => None
                end
  end.

Definition is_some {A} (o : option A) : bool := match o with Some _ => true | None => false end.

Definition loads (file : option B) : option (amap B B * B) :=
  match file with Some b => load_index idd crc0 b | None => None end.

(* bytes_n through its length and its splits: no proof below evaluates a 65536-byte list *)
Lemma bytes_n_add m n b : bytes_n (m + n) b = bytes_n m b ++ bytes_n n b.
Proof.
  unfold bytes_n. induction m as [|m IH] using N.peano_ind; [reflexivity|].
  rewrite N.add_succ_l, !N.iter_succ, IH. reflexivity.
Qed.

Lemma nlen_bytes_n n b : nlen (bytes_n n b) = n.
Proof.
  unfold bytes_n. induction n as [|n IH] using N.peano_ind; [reflexivity|].
  rewrite N.iter_succ, nlen_cons, IH. lia.
Qed.

(* non-vacuity of C01_replay_lww: three sessions with an update, a delete and a re-insert *)
Definition ex_ops : list bop :=
  [ OOpen [115;47;114;47;119];
    OWrite (mkL 1 [1] [10]) false; OWrite (mkL 1 [2] [20]) true; OWrite (mkL 2 [1] [11]) false; OClose;
    OOpen []; OWrite (mkL 3 [2] []) false; OFlush; OWrite (mkL 1 [3] [30;31]) false; OSync; OClose;
    OOpen [9]; OWrite (mkL 1 [2] [22]) false; OWrite (mkL 3 [3] []) true; OClose ].

Example ex_hyps :
  (let '(st, rs) := brun idc true init ex_ops in
   (all_ok rs, match s_w st with None => true | _ => false end,
    match s_file st with Some f => true | None => false end)) = (true, true, true).
Proof. vm_compute. reflexivity. Qed.

Example ex_loaded :
  loads (final_bytes true ex_ops) = Some ([([2], [22]); ([1], [11])], [115;47;114;47;119]).
Proof. vm_compute. reflexivity. Qed.

Definition long_key_ops : list bop :=
  [ OOpen [110]; OWrite (mkL 1 [7] [1]) false; OWrite (mkL 1 (bytes_n 65536 65) [2]) false; OClose ].

Definition empty_key_ops : list bop :=
  [ OOpen [110]; OWrite (mkL 1 [7] [1]) false; OWrite (mkL 1 [] [2]) false; OClose ].

(* Both are this history at some key k: the writer of the pinned commit never looks at a key.
   The second bound keeps the block's payload (17 + len(k) bytes) in its uint32 header field;
   24 is slack. *)
Lemma old_writer_key_wraps k :
  nlen k mod two16 = 0 -> nlen k < two32 - 24 ->
  let ops := [ OOpen [110]; OWrite (mkL 1 [7] [1]) false; OWrite (mkL 1 k [2]) false; OClose ] in
  is_some (final_bytes false ops) = true /\ loads (final_bytes false ops) = None.
Proof.
  intros Hw Hk ops. split; [reflexivity|].
  change (final_bytes false ops)
    with (Some (render idc crc0 hm0 (mkF Version3 [110] 2 1 [[mkL 1 [7] [1]; mkL 1 k [2]]]))).
  apply (load_index_key_wraps idc idd crc0 (fun x => eq_refl)) with
    (pre := [mkL 1 [7] [1]]) (e := mkL 1 k [2]) (post := []) (bs := []);
    try reflexivity.   (* closes f_blocks and the entry count *)
  - (* ver_ok *) right. split; reflexivity.
  - (* Forall wfe pre *) now repeat constructor.
  - (* the key wraps *) exact Hw.
  - (* the payload fits *) unfold block_payload, idc, ser_entries. cbn [app map concat to_entry].
    rewrite !nlen_app, !ser_entry_len. unfold entry_size, two16, two32, nlen in *.
    cbn [to_entry e_key e_data l_key l_data length]. lia.
Qed.

Example new_writer_long_key :
  snd (brun idc true init long_key_ops) = [ROk; ROk; RErr; ROk].
Proof.
  unfold brun. change long_key_ops with (firstn 2 long_key_ops ++ skipn 2 long_key_ops).
  (* [@]: with run_app's implicit arguments turned into evars first, erewrite does not come back *)
  erewrite @run_app; cycle 1.
  - (* the first two operations *) cbn [firstn long_key_ops]. vm_compute. reflexivity.
  - (* the rest *)
    cbn [skipn long_key_ops run]. rewrite write_unencodable_rejected; [vm_compute; reflexivity|].
    unfold encodable. cbn [l_key]. rewrite nlen_bytes_n. reflexivity.
  - (* the rewritten goal *) reflexivity.
Qed.

Definition long_name_ops : list bop :=
  [ OOpen (bytes_n 65536 65); OWrite (mkL 1 [7] [1]) false; OClose ].

Lemma old_writer_name_file nm :
  final_bytes false [ OOpen nm; OWrite (mkL 1 [7] [1]) false; OClose ]
  = Some (render idc crc0 hm0 (mkF Version3 nm 1 1 [[mkL 1 [7] [1]]])).
Proof. reflexivity. Qed.

(* sixteen bytes 'A' of the name, read as a block header, announce a payload of 0x41414141 bytes *)
Theorem old_writer_long_name_refuted :
  is_some (final_bytes false long_name_ops) = true /\ loads (final_bytes false long_name_ops) = None.
Proof.
  unfold long_name_ops. rewrite old_writer_name_file. split; [reflexivity|]. cbn [loads].
  eapply load_index_name_wraps with (hb := bytes_n 16 65) (tl := bytes_n 65520 65).
  - reflexivity.
  - cbn [f_name]. now rewrite nlen_bytes_n.
  - exact (bytes_n_add 16 65520 65).
  - reflexivity.
  - vm_compute. reflexivity.
  - cbn [f_blocks]. rewrite nlen_app, nlen_bytes_n. vm_compute. split; reflexivity.
Qed.

Example new_writer_long_name :
  brun idc true init long_name_ops = (init, [RErr; RErr; ROk]).
Proof.
  unfold brun, long_name_ops. cbn [run].
  rewrite open_long_name_rejected; [reflexivity|]. now rewrite nlen_bytes_n.
Qed.
