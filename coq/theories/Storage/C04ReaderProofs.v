(* Storage/C04ReaderProofs.v — theorems about the reader model (Storage/C04Reader.v with Snappy.v
   and Crc32.v), for every byte string and every policy: the entry points never panic and never
   run out of fuel; the allocation requests of the repaired code are in proportion to the file;
   what is accepted is a sequence of checked blocks and a tail too short for a block; a truncated
   accepted file reads as short or as a block-boundary prefix. readNextBlock is characterised by
   [block_view]; everything about the load loop goes through it (the ScanBlockHeaders loop has its
   own induction, [scan_loop_good]). The closed examples show that
   the hypotheses can be met; the policies and witness files for the code before the two fixes
   (35314f1, 70d855e) are defined here, the violation itself is computed in Props/C04.v. *)
From HV Require Import Base.Prelude Storage.Crc32 Storage.Snappy Storage.C04Reader.
From Coq Require Import ZifyN ZifyNat ZifyBool.
Local Open Scope N_scope.

(* an answer or an error of the code's own: neither Panic nor OutOfFuel *)
Definition good {A} (r : res A) : Prop :=
  match r with Panic | OutOfFuel => False | _ => True end.

Lemma bind_ok {A B} (r : res A) (f : A -> res B) b :
  bind r f = Ok b -> exists a, r = Ok a /\ f a = Ok b.
Proof. destruct r; try discriminate. eauto. Qed.

(* an Ok value satisfying [P], or an error of the code's own *)
Definition returns {A} (P : A -> Prop) (r : res A) : Prop :=
  match r with Ok a => P a | Err _ => True | _ => False end.

Lemma returns_bind {A B} (Q : A -> Prop) (P : B -> Prop) (r : res A) (f : A -> res B) :
  returns Q r -> (forall a, Q a -> returns P (f a)) -> returns P (bind r f).
Proof. destruct r; simpl; auto. Qed.

(* [good r] is [returns (fun _ => True) r], by computation *)
Lemma good_bind {A B} (r : res A) (f : A -> res B) :
  good r -> (forall a, good (f a)) -> good (bind r f).
Proof. intros G H. exact (returns_bind (fun _ => True) (fun _ => True) r f G (fun a _ => H a)). Qed.

Lemma lenN_nil {A} : @lenN A [] = 0.
Proof. reflexivity. Qed.

Lemma lenN_cons {A} (x : A) l : lenN (x :: l) = 1 + lenN l.
Proof. unfold lenN. simpl length. lia. Qed.

Lemma lenN_app {A} (a b : list A) : lenN (a ++ b) = lenN a + lenN b.
Proof. unfold lenN. rewrite app_length. lia. Qed.

Lemma lenN_firstn {A} k (l : list A) : lenN (firstn k l) = N.min (N.of_nat k) (lenN l).
Proof. unfold lenN. rewrite firstn_length. lia. Qed.

Lemma sub_some l lo hi :
  lo <= hi -> hi <= lenN l -> sub l lo hi = Some (firstn (N.to_nat (hi - lo)) (skipn (N.to_nat lo) l)).
Proof.
  intros H1 H2. unfold sub. rewrite (proj2 (N.leb_le _ _) H1), (proj2 (N.leb_le _ _) H2). reflexivity.
Qed.

Lemma lenN_sub (l : list N) lo hi :
  lo <= hi -> hi <= lenN l -> lenN (firstn (N.to_nat (hi - lo)) (skipn (N.to_nat lo) l)) = hi - lo.
Proof. intros H1 H2. unfold lenN in *. rewrite firstn_length, skipn_length. lia. Qed.

Lemma slice_eq l lo hi :
  lo <= hi -> hi <= lenN l -> slice l lo hi = Ok (firstn (N.to_nat (hi - lo)) (skipn (N.to_nat lo) l)).
Proof. intros H1 H2. unfold slice. rewrite sub_some by assumption. reflexivity. Qed.

Lemma slice_returns l lo hi :
  lo <= hi -> hi <= lenN l -> returns (fun s => lo + lenN s = hi) (slice l lo hi).
Proof.
  intros H1 H2. rewrite slice_eq by assumption. cbn. rewrite lenN_sub by assumption. lia.
Qed.

Lemma rd_eq l lo hi :
  lo <= hi -> hi <= lenN l -> rd l lo hi = Ok (le (firstn (N.to_nat (hi - lo)) (skipn (N.to_nat lo) l))).
Proof. intros H1 H2. unfold rd. rewrite slice_eq by assumption. reflexivity. Qed.

Lemma rd_returns l lo hi : lo <= hi -> hi <= lenN l -> returns (fun _ => True) (rd l lo hi).
Proof. intros H1 H2. rewrite rd_eq by assumption. exact I. Qed.

Lemma idx1_returns l i : i < lenN l -> returns (fun _ => True) (idx1 l i).
Proof.
  intros H. unfold idx1. destruct (nth_error l (N.to_nat i)) eqn:E; [exact I|].
  apply nth_error_None in E. unfold lenN in H. lia.
Qed.

Lemma slice_prefix_eq (f : list N) n lo hi :
  hi <= N.of_nat n -> (n <= length f)%nat -> slice (firstn n f) lo hi = slice f lo hi.
Proof.
  intros H2 H3. destruct (N.le_gt_cases lo hi) as [H1|H1].
  - rewrite (slice_eq (firstn n f)), (slice_eq f) by (rewrite ?lenN_firstn; unfold lenN; lia).
    f_equal. rewrite skipn_firstn_comm, firstn_firstn. f_equal. lia.
  - unfold slice, sub. rewrite (proj2 (N.leb_gt _ _) H1). reflexivity.
Qed.

Definition is_bytes (l : list N) : Prop := Forall (fun x => x < 256) l.

Lemma is_bytes_cut k l : is_bytes l -> is_bytes (firstn k l) /\ is_bytes (skipn k l).
Proof. intros B. apply Forall_app. rewrite firstn_skipn. exact B. Qed.

Lemma is_bytes_forallb l : forallb (fun x => x <? 256) l = true -> is_bytes l.
Proof. intros H. apply Forall_forall. intros x I. apply N.ltb_lt, (proj1 (forallb_forall _ l) H x I). Qed.

Lemma le_bound s : is_bytes s -> le s < 256 ^ lenN s.
Proof.
  induction s as [|b t IH]; intros H; [simpl; lia|].
  inversion H; subst. specialize (IH H3). rewrite lenN_cons.
  replace (1 + lenN t) with (N.succ (lenN t)) by lia. rewrite N.pow_succ_r'.
  cbn [le]. lia.
Qed.

Lemma le_slice_bound l lo hi :
  is_bytes l -> lo <= hi -> hi <= lenN l ->
  le (firstn (N.to_nat (hi - lo)) (skipn (N.to_nat lo) l)) < 256 ^ (hi - lo).
Proof.
  intros B H1 H2. rewrite <- (lenN_sub l lo hi H1 H2) at 2.
  apply le_bound, is_bytes_cut, is_bytes_cut, B.
Qed.

Definition allocs_ok (n : N) (log : list alloc) : Prop := Forall (fun a => alloc_ok n a = true) log.

Lemma alloc_ok_buf_small n k : k <= 65535 -> alloc_ok n (ABuf k) = true.
Proof. intros. cbn [alloc_ok]. lia. Qed.

Lemma alloc_ok_buf_lin n k : k <= 22 * n -> alloc_ok n (ABuf k) = true.
Proof. intros. cbn [alloc_ok]. unfold max_snappy_expansion. lia. Qed.

Lemma alloc_ok_entries n k : k <= 65535 -> alloc_ok n (AEntries k) = true.
Proof. intros. cbn [alloc_ok]. lia. Qed.

Lemma fhdr_deserialize_spec buf :
  returns (fun h => is_bytes buf -> fh_namelen h <= 65535) (fhdr_deserialize buf).
Proof.
  unfold fhdr_deserialize, file_header_size. destruct (N.ltb_spec (lenN buf) 64) as [L|L]; [exact I|].
  pose proof (fun B => le_slice_bound buf 44 46 B ltac:(lia) ltac:(lia)) as E.
  rewrite slice_eq, !rd_eq by lia. cbn [bind].
  destruct (negb _); [exact I|]. destruct (negb _ && _); [exact I|].
  intros B. cbn [fh_namelen]. destruct (_ =? version3); [apply N.lt_succ_r, (E B)|discriminate].
Qed.

Lemma new_file_reader_spec b :
  good (fst (new_file_reader b)) /\ (is_bytes b -> allocs_ok (lenN b) (snd (new_file_reader b))).
Proof.
  unfold new_file_reader, file_header_size.
  destruct (N.ltb_spec (lenN b) 64) as [L|L]; [split; [exact I|intros _; repeat constructor]|].
  rewrite slice_eq by lia. cbn [bind].
  pose proof (fhdr_deserialize_spec (firstn (N.to_nat (64 - 0)) (skipn (N.to_nat 0) b))) as S.
  destruct (fhdr_deserialize _) as [h|e| |]; try contradiction; [|split; [exact I|intros _; repeat constructor]].
  assert (A : is_bytes b -> allocs_ok (lenN b) [ABuf 64; ABuf (fh_namelen h)])
    by (intros B; repeat constructor; apply alloc_ok_buf_small, S, is_bytes_cut, is_bytes_cut, B).
  destruct (_ && _); [|split; [exact I|intros _; repeat constructor]].
  destruct (N.ltb_spec (lenN b - 64) (fh_namelen h)) as [L2|L2]; [split; [exact I|exact A]|].
  rewrite slice_eq by lia. split; [exact I|exact A].
Qed.

Lemma bhdr_deserialize_spec buf :
  16 <= lenN buf -> exists h, bhdr_deserialize buf = Ok h /\ (is_bytes buf -> bh_count h <= 65535).
Proof.
  intros L. unfold bhdr_deserialize, block_header_size.
  pose proof (fun B => le_slice_bound buf 8 10 B ltac:(lia) ltac:(lia)) as E.
  rewrite (proj2 (N.ltb_ge _ _) L), !rd_eq by lia. cbn [bind].
  eexists. split; [reflexivity|]. intros B. apply N.lt_succ_r, (E B).
Qed.

Lemma slice_header rest : 16 <= lenN rest -> slice rest 0 16 = Ok (firstn 16 rest).
Proof. intros L. apply slice_eq; lia. Qed.

Definition entry_fits (n : N) (e : entry) : Prop := lenN (e_key e) <= n /\ lenN (e_data e) <= n.

Lemma entry_fits_mono n m e : n <= m -> entry_fits n e -> entry_fits m e.
Proof. intros H (A & B). split; lia. Qed.

Lemma entry_deserialize_spec buf :
  returns (fun '(e, n) => n <= lenN buf /\ entry_fits (lenN buf) e) (entry_deserialize buf).
Proof.
  unfold entry_deserialize.
  destruct (N.ltb_spec (lenN buf) 7) as [L|L]; [exact I|].
  eapply returns_bind; [apply idx1_returns; lia|intros op _].
  eapply returns_bind; [apply rd_returns; lia|intros kl _].
  destruct (N.ltb_spec (lenN buf) (3 + kl + 4)) as [L2|L2]; [exact I|].
  eapply returns_bind; [apply slice_returns; lia|intros key Lk].
  destruct key as [|k0 key]; [exact I|].
  eapply returns_bind; [apply rd_returns; lia|intros dl _]. cbv zeta.
  destruct (N.ltb_spec (lenN buf) (3 + kl + 4 + dl)) as [L3|L3]; [exact I|].
  eapply returns_bind; [apply slice_returns; lia|intros data Ld].
  cbn beta in Lk, Ld. unfold entry_fits. cbn [returns e_key e_data]. repeat split; lia.
Qed.

Lemma parse_entries_spec k : forall unc off,
  off <= lenN unc -> returns (Forall (entry_fits (lenN unc))) (parse_entries k unc off).
Proof.
  induction k as [|k IH]; intros unc off Hoff; cbn [parse_entries]; [constructor|].
  eapply returns_bind; [apply slice_returns; lia|intros buf Lb]. cbn beta in Lb.
  eapply returns_bind; [apply entry_deserialize_spec|intros [e n] (S2 & S3)]. cbn [fst snd].
  eapply returns_bind; [apply IH; lia|intros es F].
  constructor; [|exact F]. apply (entry_fits_mono (lenN buf)); [lia|exact S3].
Qed.

Lemma sn_lit_len_len x t len t' :
  sn_lit_len x t = Some (len, t') -> (length t' <= length t)%nat.
Proof.
  unfold sn_lit_len.
  destruct (x <? 60); [intros [= _ <-]; apply le_n|].
  destruct (x =? 60); [destruct t as [|a t1]; intros [= _ <-]; simpl; lia|].
  destruct (x =? 61); [destruct t as [|a [|b t1]]; intros [= _ <-]; simpl; lia|].
  destruct (x =? 62); [destruct t as [|a [|b [|c t1]]]; intros [= _ <-]; simpl; lia|].
  destruct t as [|a [|b [|c [|d t1]]]]; intros [= _ <-]; simpl; lia.
Qed.

Lemma sn_copy_args_len k tag t len off t' :
  sn_copy_args k tag t = Some (len, off, t') -> (length t' <= length t)%nat.
Proof.
  unfold sn_copy_args.
  destruct (k =? 1); [destruct t as [|a t1]; intros [= _ _ <-]; simpl; lia|].
  destruct (k =? 2); [destruct t as [|a [|b t1]]; intros [= _ _ <-]; simpl; lia|].
  destruct t as [|a [|b [|c [|d t1]]]]; intros [= _ _ <-]; simpl; lia.
Qed.

Lemma sn_copy_back_some n : forall off1 rout,
  (off1 < length rout)%nat ->
  exists r, sn_copy_back n off1 rout = Some r /\ length r = (n + length rout)%nat.
Proof.
  induction n as [|n IH]; intros off1 rout H; simpl.
  - eauto.
  - destruct (nth_error rout off1) eqn:E.
    + destruct (IH off1 (n0 :: rout)) as (r & -> & L); [simpl; lia|].
      eexists; split; [reflexivity|]. simpl in L. lia.
    + apply nth_error_None in E. lia.
Qed.

Definition sn_good (r : sn_result) : Prop :=
  match r with SnPanic | SnOutOfFuel => False | _ => True end.

Lemma sn_loop_good fuel : forall dlen d rout src,
  (length src < fuel)%nat -> d = lenN rout -> sn_good (sn_loop fuel dlen d rout src).
Proof.
  induction fuel as [|f IH]; intros dlen d rout src Hf Hd; [lia|].
  cbn [sn_loop]. destruct src as [|tag t].
  - destruct (d =? dlen); exact I.
  - cbv zeta. destruct (N.land tag 3 =? 0).
    + destruct (sn_lit_len (N.shiftr tag 2) t) as [[len t']|] eqn:E; [|exact I].
      apply sn_lit_len_len in E.
      destruct ((dlen - d <? len) || (lenN t' <? len)) eqn:C; [exact I|].
      apply orb_false_iff in C as [_ C]. apply N.ltb_ge in C. unfold lenN in C. apply IH.
      * rewrite skipn_length. simpl in Hf. lia.
      * subst d. unfold lenN. rewrite rev_append_rev, app_length, rev_length, firstn_length. lia.
    + destruct (sn_copy_args (N.land tag 3) tag t) as [[[len off] t']|] eqn:E; [|exact I].
      apply sn_copy_args_len in E.
      destruct ((off =? 0) || (d <? off) || (dlen - d <? len)) eqn:C; [exact I|].
      apply orb_false_iff in C as [C _]. apply orb_false_iff in C as [C1 C2].
      apply N.eqb_neq in C1. apply N.ltb_ge in C2.
      destruct (sn_copy_back_some (N.to_nat len) (N.to_nat (off - 1)) rout) as (r & -> & L).
      { subst d. unfold lenN in C2. lia. }
      apply IH; [simpl in Hf; lia|]. subst d. unfold lenN in *. lia.
Qed.

Lemma snappy_decode_good src : sn_good (snappy_decode src).
Proof.
  unfold snappy_decode. destruct (sn_decoded_len src) as [[dl body]|]; [|exact I].
  apply sn_loop_good; [lia|reflexivity].
Qed.

Lemma parse_block_spec pol h comp :
  returns (fun es => crc32 comp = bh_crc h /\
                     exists unc, snappy_decode comp = SnOk unc /\ lenN unc = bh_usize h /\
                                 parse_entries (N.to_nat (bh_count h)) unc 0 = Ok es)
          (fst (parse_block pol h comp)).
Proof.
  unfold parse_block.
  destruct (negb (crc32 comp =? bh_crc h)) eqn:C; [exact I|]. apply negb_false_iff, N.eqb_eq in C.
  destruct (sn_decoded_len comp) as [[dl body]|]; [|exact I].
  destruct (p_sn_bound pol && _); [exact I|].
  pose proof (snappy_decode_good comp) as G.
  destruct (snappy_decode comp) as [unc| | |]; try contradiction; cbn [sn_to_res fst]; [|exact I].
  destruct (negb (lenN unc =? bh_usize h)) eqn:C3; [exact I|]. apply negb_false_iff, N.eqb_eq in C3.
  pose proof (parse_entries_spec (N.to_nat (bh_count h)) unc 0 (N.le_0_l _)) as S.
  destruct (parse_entries (N.to_nat (bh_count h)) unc 0) eqn:P; cbn [fst returns] in *; try exact I; try contradiction.
  split; [exact C|]. exists unc. auto.
Qed.

Definition step_of (r : res (list entry)) (rest' : list N) : step :=
  match r with Ok es => StBlock es rest' | Err e => StErr e | Panic => StPanic | OutOfFuel => StFuel end.

(* a tail that cannot hold a complete block *)
Definition incomplete_tail (tail : list N) : Prop :=
  lenN tail < 16 \/
  exists h, bhdr_deserialize (firstn 16 tail) = Ok h /\ lenN tail - 16 < bh_csize h.

(* Either what is left cannot hold a block and is classified by the tail policy (the repaired
   code has then asked for the header buffer only), or it starts with a header and the whole
   payload that header announces, and ParseBlock decides. *)
Inductive block_view (pol : policy) (rest : list N) : step * list alloc -> Prop :=
| BvTail eof log :
    incomplete_tail rest -> (p_bound_first pol = true -> log = [ABuf 16]) ->
    block_view pol rest (tail_class eof, log)
| BvBlock hb h comp rest' :
    rest = hb ++ comp ++ rest' -> lenN hb = 16 -> bhdr_deserialize hb = Ok h ->
    (is_bytes hb -> bh_count h <= 65535) -> lenN comp = bh_csize h ->
    block_view pol rest (step_of (fst (parse_block pol h comp)) rest',
                         [ABuf 16; ABuf (bh_csize h)] ++ snd (parse_block pol h comp)).

Lemma next_block_ne_view pol rest : block_view pol rest (next_block_ne pol rest).
Proof.
  unfold next_block_ne, block_header_size. cbv zeta.
  destruct (N.ltb_spec (lenN rest) 16) as [L|L].
  { apply BvTail; [left; exact L|reflexivity]. }
  rewrite (slice_header rest L). cbn [bind].
  destruct (bhdr_deserialize_spec (firstn 16 rest)) as (h & Eb & Hc); [rewrite lenN_firstn; lia|]. rewrite Eb.
  destruct (N.ltb_spec (lenN rest - 16) (bh_csize h)) as [S|S].
  { assert (incomplete_tail rest) by (right; exists h; split; [exact Eb|exact S]).
    destruct (p_bound_first pol) eqn:Hb; (apply BvTail; [assumption|]).
    - (* repaired code: only the header buffer has been asked for *) reflexivity.
    - (* the code before the repair: [BvTail] says nothing about its log *)
      intros Hb'. congruence. }
  rewrite andb_false_r, slice_eq by lia.
  replace (N.to_nat (16 + bh_csize h)) with (N.to_nat (bh_csize h) + 16)%nat by lia.
  replace (16 + bh_csize h - 16) with (bh_csize h) by lia.
  rewrite <- skipn_skipn. change (N.to_nat 16) with 16%nat.
  assert (V : block_view pol rest _) by
    (apply (BvBlock pol rest (firstn 16 rest) h (firstn (N.to_nat (bh_csize h)) (skipn 16 rest))
              (skipn (N.to_nat (bh_csize h)) (skipn 16 rest)));
     [rewrite !firstn_skipn; reflexivity|rewrite lenN_firstn; lia|exact Eb|exact Hc|
      unfold lenN in *; rewrite firstn_length, skipn_length; lia]).
  (* the model and the view differ only in how ParseBlock's pair is taken apart *)
  revert V. destruct (parse_block pol h _) as [[es|e| |] plog]; exact (fun V => V).
Qed.

Lemma next_block_view pol rest : block_view pol rest (next_block pol rest).
Proof.
  destruct rest; [|apply next_block_ne_view].
  apply (BvTail _ _ true); [left|]; reflexivity.
Qed.

Lemma read_blocks_good pol fuel : forall rest,
  (length rest < 16 * fuel)%nat -> good (fst (read_blocks pol fuel rest)).
Proof.
  induction fuel as [|f IH]; intros rest H; [lia|].
  cbn [read_blocks].
  destruct (next_block_view pol rest) as [[|] log _ _|hb h comp rest' -> Lh _ _ _]; try exact I.
  pose proof (parse_block_spec pol h comp) as G.
  destruct (fst (parse_block pol h comp)); try contradiction; try exact I. cbn [step_of].
  rewrite !app_length in H. unfold lenN in Lh. specialize (IH rest' ltac:(lia)).
  destruct (read_blocks pol f rest') as [[] log']; exact IH.
Qed.

(* the block loop consumes at least 16 bytes per iteration, so the fuel of a file serves any
   part of it *)
Lemma blocks_fuel_enough {A} (a : list A) b : (length a <= length b)%nat -> (length a < 16 * blocks_fuel b)%nat.
Proof.
  intros H. unfold blocks_fuel.
  pose proof (Nat.div_mod (length b) 16 ltac:(lia)).
  pose proof (Nat.mod_upper_bound (length b) 16 ltac:(lia)). lia.
Qed.

Lemma skipN_length n l : (length (skipN n l) <= length l)%nat.
Proof.
  unfold skipN. destruct (lenN l <=? n); [simpl; lia|]. rewrite skipn_length. lia.
Qed.

Lemma fst_read_file pol b :
  fst (read_file_bytes pol b) =
  bind (fst (new_file_reader b)) (fun op =>
  bind (fst (read_blocks pol (blocks_fuel b) (skipN (data_start_offset (o_hdr op)) b))) (fun es =>
  Ok (apply_entries (o_name op) es))).
Proof.
  unfold read_file_bytes, read_file_fuel.
  destruct (new_file_reader b) as [[op|e| |] log0]; try reflexivity. cbn [fst bind].
  destruct (read_blocks _ _ _) as [[es|e| |] log1]; reflexivity.
Qed.

Lemma opened_good {B} b (f : opened -> res B) :
  (forall op, good (f op)) -> good (bind (fst (new_file_reader b)) f).
Proof. apply good_bind, new_file_reader_spec. Qed.

Lemma file_blocks_good pol b d : good (fst (read_blocks pol (blocks_fuel b) (skipN d b))).
Proof. apply read_blocks_good, blocks_fuel_enough, skipN_length. Qed.

Theorem read_entries_total pol b : good (read_entries pol b).
Proof. apply opened_good. intros op. apply file_blocks_good. Qed.

Theorem read_file_total pol b : good (fst (read_file_bytes pol b)).
Proof.
  rewrite fst_read_file. apply opened_good. intros op.
  apply good_bind; [apply file_blocks_good|]. intros; exact I.
Qed.

Lemma scan_loop_good fuel : forall rest bc ec us,
  (length rest < 16 * fuel)%nat -> good (scan_loop fuel rest bc ec us).
Proof.
  induction fuel as [|f IH]; intros rest bc ec us H; [lia|].
  cbn [scan_loop].
  destruct (N.ltb_spec (lenN rest) block_header_size) as [L|L]; [exact I|].
  unfold block_header_size in *.
  rewrite (slice_header rest L). cbn [bind].
  destruct (bhdr_deserialize_spec (firstn 16 rest)) as (h & -> & _); [rewrite lenN_firstn; lia|]. cbn [bind].
  apply IH. unfold skipN. destruct (N.leb_spec (lenN rest) (16 + bh_csize h)) as [C|C].
  - simpl. unfold lenN in L. lia.
  - rewrite skipn_length. unfold lenN in L. lia.
Qed.

Theorem scan_total b : good (scan_block_headers b).
Proof.
  apply opened_good. intros op. apply scan_loop_good, blocks_fuel_enough, le_n.
Qed.

Theorem calc_fragmentation_total pol b : good (calc_fragmentation pol b).
Proof. apply good_bind; [apply read_entries_total|]. intros; exact I. Qed.

Theorem read_all_blocks_total pol b : good (read_all_blocks pol b).
Proof.
  apply opened_good. intros op. apply good_bind; [apply file_blocks_good|]. intros; exact I.
Qed.

Theorem read_swamp_name_total pol b : good (read_swamp_name pol b).
Proof.
  apply opened_good. intros op.
  destruct (fh_version (o_hdr op) =? version3); [exact I|].
  apply good_bind; [apply read_file_total|]. intros; exact I.
Qed.

Lemma allocs_ok_mono n m log : n <= m -> allocs_ok n log -> allocs_ok m log.
Proof.
  intros H. apply Forall_impl. intros [k|k]; cbn [alloc_ok]; [|auto]. unfold max_snappy_expansion. lia.
Qed.

Lemma entry_allocs_ok n m es : m <= 22 * n -> Forall (entry_fits m) es -> allocs_ok n (entry_allocs es).
Proof.
  intros H F. apply Forall_flat_map. revert F. apply Forall_impl. intros e (F1 & F2).
  repeat constructor; apply alloc_ok_buf_lin; lia.
Qed.

Lemma load_allocs_ok n es : Forall (entry_fits (22 * n)) es -> allocs_ok n (load_allocs es).
Proof.
  intros F. apply Forall_flat_map. revert F. apply Forall_impl. intros e (_ & F2).
  destruct (_ || _); repeat constructor. apply alloc_ok_buf_lin, F2.
Qed.

Lemma parse_block_allocs pol h comp n :
  p_sn_bound pol = true -> bh_count h <= 65535 -> lenN comp <= n ->
  allocs_ok n (snd (parse_block pol h comp)) /\
  (forall es, fst (parse_block pol h comp) = Ok es -> Forall (entry_fits (22 * n)) es).
Proof.
  (* [Hsn] is cleared at once: boolean atoms in the context make every later lia slow *)
  intros Hsn Hc Hn. unfold parse_block. rewrite Hsn. clear Hsn. cbn [andb].
  destruct (negb (crc32 comp =? bh_crc h)); [split; [constructor|discriminate]|].
  destruct (sn_decoded_len comp) as [[dl body]|]; [|split; [constructor|discriminate]].
  destruct (negb (dl =? bh_usize h) || (max_snappy_expansion * lenN comp <? dl)) eqn:C;
    [split; [constructor|discriminate]|].
  apply orb_false_iff in C as [C1 C2]. apply negb_false_iff, N.eqb_eq in C1.
  apply N.ltb_ge in C2. unfold max_snappy_expansion in C2. assert (D : dl <= 22 * n) by lia.
  destruct (snappy_decode comp) as [unc| | |]; cbn [sn_to_res fst snd];
    try (split; [repeat constructor; auto using alloc_ok_buf_lin|discriminate]).
  destruct (negb (lenN unc =? bh_usize h)) eqn:C3;
    [split; [repeat constructor; auto using alloc_ok_buf_lin|discriminate]|].
  apply negb_false_iff, N.eqb_eq in C3.
  pose proof (parse_entries_spec (N.to_nat (bh_count h)) unc 0 (N.le_0_l _)) as S.
  destruct (parse_entries (N.to_nat (bh_count h)) unc 0) as [es| | |]; cbn [fst snd];
    try (split; [repeat constructor; auto using alloc_ok_buf_lin, alloc_ok_entries|discriminate]).
  split.
  - repeat constructor; auto using alloc_ok_buf_lin, alloc_ok_entries.
    apply entry_allocs_ok with (m := lenN unc); [lia|exact S].
  - intros es' [= <-]. revert S. apply Forall_impl. intros e. apply entry_fits_mono. lia.
Qed.

Lemma read_blocks_allocs pol n fuel : forall rest,
  p_bound_first pol = true -> p_sn_bound pol = true -> is_bytes rest -> lenN rest <= n ->
  allocs_ok n (snd (read_blocks pol fuel rest)) /\
  (forall es, fst (read_blocks pol fuel rest) = Ok es -> Forall (entry_fits (22 * n)) es).
Proof.
  induction fuel as [|f IH]; intros rest Hb Hsn B Hn; cbn [read_blocks]; [split; [constructor|discriminate]|].
  destruct (next_block_view pol rest) as [[|] log _ Hl|hb h comp rest' -> Lh Eb Hc Lc].
  - rewrite (Hl Hb). split; [repeat constructor|]. intros es [= <-]. constructor.
  - rewrite (Hl Hb). split; [repeat constructor|discriminate].
  - rewrite !lenN_app in Hn. apply Forall_app in B as (Bh & Br). apply Forall_app in Br as (_ & Br).
    assert (Hr : lenN comp <= n /\ lenN rest' <= n /\ bh_csize h <= 22 * n) by (clear - Hn Lc; lia).
    destruct Hr as (H1 & H2 & H3).
    destruct (parse_block_allocs pol h comp n Hsn (Hc Bh) H1) as (P1 & P2).
    assert (A : allocs_ok n ([ABuf 16; ABuf (bh_csize h)] ++ snd (parse_block pol h comp)))
      by (repeat constructor; [apply alloc_ok_buf_lin, H3|exact P1]).
    destruct (fst (parse_block pol h comp)) as [es0| | |]; cbn [step_of]; try (split; [exact A|discriminate]).
    destruct (IH rest' Hb Hsn Br H2) as (A2 & F2).
    destruct (read_blocks pol f rest') as [r log']. cbn [fst snd] in *.
    split; [apply Forall_app; split; assumption|].
    destruct r; cbn [bind]; try discriminate.
    intros es' [= <-]. apply Forall_app. split; [apply P2; reflexivity|apply F2; reflexivity].
Qed.

Lemma is_bytes_skipN k l : is_bytes l -> is_bytes (skipN k l).
Proof. intros B. unfold skipN. destruct (lenN l <=? k); [constructor|apply is_bytes_cut, B]. Qed.

Theorem read_file_fuel_allocs pol fuel b :
  p_bound_first pol = true -> p_sn_bound pol = true -> is_bytes b ->
  allocs_ok (lenN b) (snd (read_file_fuel pol fuel b)).
Proof.
  intros Hb Hsn B. unfold read_file_fuel.
  pose proof (proj2 (new_file_reader_spec b) B) as A0.
  destruct (new_file_reader b) as [[op|e| | ] log0]; cbn [snd] in *; try exact A0.
  assert (L : lenN (skipN (data_start_offset (o_hdr op)) b) <= lenN b)
    by (clear; pose proof (skipN_length (data_start_offset (o_hdr op)) b); unfold lenN; lia).
  destruct (read_blocks_allocs pol (lenN b) fuel _ Hb Hsn (is_bytes_skipN _ _ B) L) as (A1 & F).
  destruct (read_blocks pol _ _) as [[es|e| | ] log1]; cbn [fst snd] in *;
    repeat (apply Forall_app; split); trivial.
  apply load_allocs_ok, F. reflexivity.
Qed.

Record cblock := { cb_hdr : list N; cb_comp : list N; cb_entries : list entry }.

Definition cb_bytes (b : cblock) : list N := cb_hdr b ++ cb_comp b.

(* what "a block of the file checks out" means, independent of the reader loop *)
Definition block_checked (b : cblock) : Prop :=
  lenN (cb_hdr b) = 16 /\
  exists h unc,
    bhdr_deserialize (cb_hdr b) = Ok h /\
    lenN (cb_comp b) = bh_csize h /\                         (* payload completely present *)
    crc32 (cb_comp b) = bh_crc h /\                          (* CRC-32 over the compressed bytes matches *)
    snappy_decode (cb_comp b) = SnOk unc /\                  (* decompression succeeds ... *)
    lenN unc = bh_usize h /\                                 (* ... with the declared length *)
    parse_entries (N.to_nat (bh_count h)) unc 0 = Ok (cb_entries b).   (* EntryCount entries parse *)

Definition block_accepted (pol : policy) (b : cblock) : Prop :=
  lenN (cb_hdr b) = 16 /\
  exists h, bhdr_deserialize (cb_hdr b) = Ok h /\ lenN (cb_comp b) = bh_csize h /\
            fst (parse_block pol h (cb_comp b)) = Ok (cb_entries b).

Lemma accepted_checked pol b : block_accepted pol b -> block_checked b.
Proof.
  intros (Lh & h & Eb & Lc & P). pose proof (parse_block_spec pol h (cb_comp b)) as S.
  rewrite P in S. destruct S as (C & unc & D & U & Pe). split; [exact Lh|]. exists h, unc. auto 6.
Qed.

Theorem read_blocks_ok_inv pol fuel : forall rest es,
  fst (read_blocks pol fuel rest) = Ok es ->
  exists blocks tail,
    rest = concat (map cb_bytes blocks) ++ tail /\
    Forall (block_accepted pol) blocks /\
    es = concat (map cb_entries blocks) /\
    incomplete_tail tail.
Proof.
  induction fuel as [|f IH]; intros rest es; cbn [read_blocks]; [discriminate|].
  destruct (next_block_view pol rest) as [[|] log IT _|hb h comp rest' -> Lh Eb _ Lc]; try discriminate.
  - intros [= <-]. exists [], rest. repeat split; [constructor|exact IT].
  - destruct (fst (parse_block pol h comp)) as [es0| | |] eqn:P; try discriminate. cbn [step_of].
    specialize (IH rest'). destruct (read_blocks pol f rest') as [[es'| | |] log']; try discriminate.
    intros [= <-]. destruct (IH es' eq_refl) as (blocks & tail & -> & R2 & -> & R4).
    exists ({| cb_hdr := hb; cb_comp := comp; cb_entries := es0 |} :: blocks), tail.
    cbn [map concat cb_entries]. repeat split; [|constructor; [split; [exact Lh|exists h; auto]|exact R2]|exact R4].
    unfold cb_bytes at 2. cbn [cb_hdr cb_comp]. rewrite <- !app_assoc. reflexivity.
Qed.

Theorem read_file_ok_inv pol f res :
  fst (read_file_bytes pol f) = Ok res ->
  exists op blocks tail,
    fst (new_file_reader f) = Ok op /\
    skipN (data_start_offset (o_hdr op)) f = concat (map cb_bytes blocks) ++ tail /\
    Forall (block_accepted pol) blocks /\ incomplete_tail tail /\
    res = apply_entries (o_name op) (concat (map cb_entries blocks)).
Proof.
  rewrite fst_read_file. intros H.
  apply bind_ok in H as (op & Eo & H). apply bind_ok in H as (es & Er & [= <-]).
  destruct (read_blocks_ok_inv _ _ _ _ Er) as (blocks & tail & R1 & R2 & -> & R4).
  exists op, blocks, tail. auto.
Qed.

Lemma whole_block_complete hb h comp X :
  lenN hb = 16 -> bhdr_deserialize hb = Ok h -> lenN comp = bh_csize h -> ~ incomplete_tail (hb ++ comp ++ X).
Proof.
  intros Lh Eb Lc [IT|(h' & E & S)]; [rewrite !lenN_app in IT; lia|].
  replace 16%nat with (length hb) in E by (unfold lenN in Lh; lia).
  rewrite firstn_len_app, Eb in E. injection E as <-. rewrite !lenN_app in S. lia.
Qed.

Lemma read_incomplete pol f t :
  incomplete_tail t -> fst (read_blocks pol (S f) t) = Ok [] \/ fst (read_blocks pol (S f) t) = Err EShort.
Proof.
  intros IT. cbn [read_blocks].
  destruct (next_block_view pol t) as [[|] log _ _|hb h comp r -> Lh Eb _ Lc]; [left|right|]; try reflexivity.
  destruct (whole_block_complete _ _ _ _ Lh Eb Lc IT).
Qed.

Lemma header_firstn_incomplete t h m :
  bhdr_deserialize (firstn 16 t) = Ok h -> N.min (N.of_nat m) (lenN t) < 16 + bh_csize h ->
  incomplete_tail (firstn m t).
Proof.
  intros E Hm. destruct (N.lt_ge_cases (N.min (N.of_nat m) (lenN t)) 16) as [C|C].
  - left. rewrite lenN_firstn. exact C.
  - right. exists h. rewrite firstn_firstn, Nat.min_l, lenN_firstn by lia. split; [exact E|lia].
Qed.

Lemma incomplete_firstn t j : incomplete_tail t -> incomplete_tail (firstn j t).
Proof.
  intros [IT|(h & E & S)]; [left; rewrite lenN_firstn; lia|].
  apply (header_firstn_incomplete t h j E). lia.
Qed.

Lemma accepted_firstn_incomplete pol b m :
  block_accepted pol b -> (m < length (cb_bytes b))%nat -> incomplete_tail (firstn m (cb_bytes b)).
Proof.
  intros (Lh & h & Eb & Lc & _) Hm. unfold cb_bytes in *. rewrite app_length in Hm. unfold lenN in Lh, Lc.
  apply (header_firstn_incomplete _ h); [|lia].
  replace 16%nat with (length (cb_hdr b)) by lia. rewrite firstn_len_app. exact Eb.
Qed.

Lemma next_block_accepted pol b X :
  block_accepted pol b -> fst (next_block pol (cb_bytes b ++ X)) = StBlock (cb_entries b) X.
Proof.
  intros (Lh & h & Eb & Lc & P). unfold cb_bytes. rewrite <- app_assoc.
  destruct (next_block_view pol (cb_hdr b ++ cb_comp b ++ X)) as [eof log IT _|hb h' comp r E Lh' Eb' _ Lc']; cbn [fst].
  - destruct (whole_block_complete _ _ _ _ Lh Eb Lc IT).
  - apply app_inv_length in E as [<- E]; [|unfold lenN in *; lia].
    rewrite Eb in Eb'. injection Eb' as <-.
    apply app_inv_length in E as [<- <-]; [|unfold lenN in *; lia].
    rewrite P. reflexivity.
Qed.

Lemma read_accepted pol b X f :
  block_accepted pol b ->
  fst (read_blocks pol (S f) (cb_bytes b ++ X)) =
  bind (fst (read_blocks pol f X)) (fun es => Ok (cb_entries b ++ es)).
Proof.
  intros Hb. cbn [read_blocks]. pose proof (next_block_accepted pol b X Hb) as NB.
  destruct (next_block pol _) as [st log]. cbn [fst] in NB. subst st.
  destruct (read_blocks pol f X) as [r log']. reflexivity.
Qed.

Lemma cb_bytes_len pol b : block_accepted pol b -> (16 <= length (cb_bytes b))%nat.
Proof. intros (Lh & _). unfold cb_bytes. rewrite app_length. unfold lenN in Lh. lia. Qed.

Lemma read_blocks_prefix pol tail : incomplete_tail tail ->
  forall blocks, Forall (block_accepted pol) blocks ->
  forall m fuel,
    (length (firstn m (concat (map cb_bytes blocks) ++ tail)) < 16 * fuel)%nat ->
    let r := fst (read_blocks pol fuel (firstn m (concat (map cb_bytes blocks) ++ tail))) in
    r = Err EShort \/ exists k, r = Ok (concat (map cb_entries (firstn k blocks))).
Proof.
  intros IT blocks F. induction F as [|b bs Hb _ IH]; intros m [|f] Hf r; subst r; try lia.
  - cbn [map concat app].
    destruct (read_incomplete pol f _ (incomplete_firstn tail m IT)) as [-> | ->];
      [right; exists 0%nat|left]; reflexivity.
  - cbn [map concat] in *. rewrite <- app_assoc, firstn_app in Hf |- *.
    destruct (Nat.lt_ge_cases m (length (cb_bytes b))) as [Hm|Hm].
    + replace (m - length (cb_bytes b))%nat with 0%nat by lia. rewrite firstn_O, app_nil_r.
      destruct (read_incomplete pol f _ (accepted_firstn_incomplete pol b m Hb Hm)) as [-> | ->];
        [right; exists 0%nat|left]; reflexivity.
    + rewrite firstn_all2 in Hf |- * by exact Hm. rewrite read_accepted by exact Hb.
      rewrite app_length in Hf. pose proof (cb_bytes_len pol b Hb).
      destruct (IH (m - length (cb_bytes b))%nat f) as [-> | (k & ->)]; [lia|left; reflexivity|].
      right. exists (S k). reflexivity.
Qed.

Lemma skipN_firstn d n (l : list N) : skipN d (firstn n l) = firstn (n - N.to_nat d) (skipN d l).
Proof.
  unfold skipN. rewrite lenN_firstn.
  destruct (N.leb_spec (lenN l) d) as [C1|C1]; destruct (N.leb_spec (N.min (N.of_nat n) (lenN l)) d) as [C2|C2]; try lia.
  - symmetry. apply firstn_nil.
  - replace (n - N.to_nat d)%nat with 0%nat by lia. reflexivity.
  - apply skipn_firstn_comm.
Qed.

Lemma nfr_prefix f op n :
  fst (new_file_reader f) = Ok op ->
  match fst (new_file_reader (firstn n f)) with Ok op' => op' = op | Err e => e = EShort | _ => False end.
Proof.
  destruct (Nat.le_gt_cases (length f) n) as [Hn|Hn]; [rewrite firstn_all2 by exact Hn; intros ->; reflexivity|].
  assert (lenN (firstn n f) = N.of_nat n) as Ln by (rewrite lenN_firstn; unfold lenN; lia).
  unfold new_file_reader, file_header_size. rewrite Ln.
  destruct (N.ltb_spec (lenN f) 64) as [Lf|Lf]; [discriminate|].
  destruct (N.ltb_spec (N.of_nat n) 64) as [Lf'|Lf']; [intros _; reflexivity|].
  rewrite (slice_prefix_eq f n 0 64) by lia.
  destruct (bind (slice f 0 64) fhdr_deserialize) as [h| | |]; try discriminate.
  destruct (_ && _); [|intros [= <-]; reflexivity].
  destruct (N.ltb_spec (lenN f - 64) (fh_namelen h)) as [Sf|Sf]; [discriminate|].
  destruct (N.ltb_spec (N.of_nat n - 64) (fh_namelen h)) as [Sf'|Sf']; [intros _; reflexivity|].
  rewrite (slice_prefix_eq f n 64 (64 + fh_namelen h)) by lia.
  destruct (slice f 64 _); try discriminate. intros [= <-]. reflexivity.
Qed.

Lemma read_file_prefix pol f op blocks tail n :
  fst (new_file_reader f) = Ok op ->
  skipN (data_start_offset (o_hdr op)) f = concat (map cb_bytes blocks) ++ tail ->
  Forall (block_accepted pol) blocks -> incomplete_tail tail ->
  fst (read_file_bytes pol (firstn n f)) = Err EShort \/
  exists k, fst (read_file_bytes pol (firstn n f)) =
            Ok (apply_entries (o_name op) (concat (map cb_entries (firstn k blocks)))).
Proof.
  intros NF R1 R2 R4. rewrite fst_read_file.
  pose proof (nfr_prefix f op n NF) as P.
  destruct (fst (new_file_reader (firstn n f))) as [op'|e| |]; [subst op'|subst e; left; reflexivity|contradiction..].
  cbn [bind]. rewrite skipN_firstn, R1.
  destruct (read_blocks_prefix pol tail R4 blocks R2 (n - N.to_nat (data_start_offset (o_hdr op)))
              (blocks_fuel (firstn n f))) as [-> | (k & ->)].
  - apply blocks_fuel_enough. rewrite <- R1, <- skipN_firstn. apply skipN_length.
  - left; reflexivity.
  - right. exists k. reflexivity.
Qed.

(* the code before fixes 35314f1 / 70d855e: an 80-byte file / an 87-byte file make it request 4 GiB *)
Definition old_policy : policy :=
  {| p_partial_hdr_eof := true; p_nopayload_eof := true; p_shortpayload_eof := false;
     p_bound_first := false; p_sn_bound := false |}.
Definition fixed_policy : policy :=
  {| p_partial_hdr_eof := true; p_nopayload_eof := true; p_shortpayload_eof := true;
     p_bound_first := true; p_sn_bound := true |}.

Definition witness_header : list N :=
  [72;89;68;82; 3;0; 0;0] ++ repeat 0 56.
Definition witness_forged_csize : list N :=            (* block header: CompressedSize = 0xFFFFFFF0 *)
  witness_header ++ [240;255;255;255; 10;0;0;0; 1;0; 0;0;0;0; 0;0].
Definition witness_forged_preamble : list N :=         (* CRC-consistent 7-byte block, snappy preamble 0xFFFFFFFF *)
  witness_header ++ [7;0;0;0; 255;255;255;255; 1;0; 196;201;120;245; 0;0] ++ [255;255;255;255;15;0;65].

(* the hypotheses of the theorems can be met: a file written by the real FileWriter
   (3 entries in one block whose Snappy stream contains a copy element) *)
Definition example_file : list N :=
  [72;89;68;82;3;0;0;0;31;142;88;197;127;128;215;24;31;142;88;197;127;128;215;24;0;64;0;0;3;0;0;0;0;0;0;0;1;0;0;0;
   0;0;0;0;0;0;0;0;0;0;0;0;0;0;0;0;0;0;0;0;0;0;0;0;36;0;0;0;58;0;0;0;3;0;205;73;85;136;0;0;58;80;3;2;0;107;107;0;0;0;
   0;1;1;0;107;32;0;0;0;97;98;99;100;110;4;0;32;1;1;0;97;1;0;0;0;118].

Example example_file_loads :
  is_bytes example_file /\
  fst (read_file_bytes fixed_policy example_file) =
    Ok ([([97], [118]);
         ([107], [97;98;99;100;97;98;99;100;97;98;99;100;97;98;99;100;97;98;99;100;97;98;99;100;97;98;99;100;97;98;99;100])],
        []) /\
  snd (read_file_bytes fixed_policy example_file) =
    [ABuf 64; ABuf 16; ABuf 36; ABuf 58; AEntries 3; ABuf 2; ABuf 0; ABuf 1; ABuf 32; ABuf 1; ABuf 1; ABuf 16; ABuf 32; ABuf 1] /\
  scan_block_headers example_file = Ok (1, 3, 58).
Proof.
  split; [apply is_bytes_forallb; vm_compute; reflexivity|].
  split; [vm_compute; reflexivity|]. split; vm_compute; reflexivity.
Qed.

(* one flipped payload bit of that file is reported, not decoded *)
Example example_file_bitflip_detected :
  fst (read_file_bytes fixed_policy (firstn 100 example_file ++ [99] ++ skipn 101 example_file)) = Err ECorrupt.
Proof. vm_compute. reflexivity. Qed.

(* non-vacuity: the example file is accepted; cut inside its only block it reads as the empty
   prefix (k = 0) under the repaired code's tail policy and as an error under the old one *)
Example example_file_truncated :
  fst (read_file_bytes fixed_policy (firstn 100 example_file)) = Ok ([], []) /\
  fst (read_file_bytes old_policy (firstn 100 example_file)) = Err EShort /\
  fst (read_file_bytes fixed_policy (firstn 70 example_file)) = Ok ([], []) /\
  fst (read_file_bytes fixed_policy (firstn 63 example_file)) = Err EShort.
Proof. split; [vm_compute; reflexivity|]. split; [vm_compute; reflexivity|]. split; vm_compute; reflexivity. Qed.
