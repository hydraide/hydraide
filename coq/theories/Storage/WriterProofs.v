(* Storage/WriterProofs.v — the repaired writer (guard = true): every block it puts into a file
   is well-formed, file plus buffer stand for exactly the accepted entries in order, the stored
   name never changes.  Only [run_app] is about either writer. *)
From HV Require Import Base.Prelude Storage.Format Storage.Lww Storage.Writer.
Local Open Scope N_scope.

Section WriterProofs.
Variables (K D NM : Type).
Variables (klen : K -> N) (dlen : D -> N) (nmlen : NM -> N).
Variable cfits : list (lentry K D) -> bool.

Notation lent := (lentry K D).
Notation encodable := (encodable K D klen dlen).
Notation block_ok := (block_ok K D cfits).
Notation flush := (flush K D NM cfits true).
Notation step := (step K D NM klen dlen nmlen cfits true).
Notation run := (run K D NM klen dlen nmlen cfits true).
Notation state := (state K D NM).
Notation lfile := (lfile K D NM).

Definition wfe (e : lent) : Prop := encodable e = true.
Definition wf_block (b : list lent) : Prop := b <> [] /\ block_ok b = true /\ Forall wfe b.
Definition wf_file (f : lfile) : Prop := Forall wf_block (f_blocks f).

Definition Inv (st : state) : Prop :=
  match s_file st, s_w st with
  | Some f, Some w => wf_file f /\ Forall wfe (w_buf w)
  | Some f, None => wf_file f
  | None, Some _ => False
  | None, None => True
  end.

Definition grows (f f' : lfile) : Prop :=
  f_name f' = f_name f /\ f_ver f' = f_ver f /\ exists extra, f_blocks f' = f_blocks f ++ extra.

Lemma grows_refl f : grows f f.
Proof. repeat split. exists []. now rewrite app_nil_r. Qed.

Lemma grows_trans f1 f2 f3 : grows f1 f2 -> grows f2 f3 -> grows f1 f3.
Proof.
  intros (Hn & Hv & x & Hx) (Hn' & Hv' & y & Hy). repeat split; try congruence.
  exists (x ++ y). now rewrite Hy, Hx, app_assoc.
Qed.

Definition keeps (st st' : state) : Prop :=
  (Inv st -> Inv st') /\
  forall f, s_file st = Some f -> exists f', s_file st' = Some f' /\ grows f f'.

Lemma keeps_refl st : keeps st st.
Proof. split; [auto|]. intros f Hf. exists f. auto using grows_refl. Qed.

Lemma keeps_trans st1 st2 st3 : keeps st1 st2 -> keeps st2 st3 -> keeps st1 st3.
Proof.
  intros [HI Hf] [HI' Hf']. split; [auto|]. intros f1 H1.
  destruct (Hf _ H1) as (f2 & H2 & G). destruct (Hf' _ H2) as (f3 & H3 & G').
  exists f3. eauto using grows_trans.
Qed.

Lemma flush_spec f w f' w' r :
  flush f w = (f', w', r) ->
  grows f f' /\
  (wf_file f -> Forall wfe (w_buf w) -> wf_file f' /\ Forall wfe (w_buf w')) /\
  concat (f_blocks f') ++ w_buf w' = concat (f_blocks f) ++ w_buf w /\
  (r = ROk -> w_buf w' = []).
Proof.
  unfold Writer.flush. destruct (w_buf w) as [|e b] eqn:Eb.
  - intros [= <- <- <-]. rewrite Eb. auto using grows_refl.
  - cbn [andb]. destruct (block_ok (e :: b)) eqn:Ebo; cbn [negb]; intros [= <- <- <-].
    + cbn [f_blocks w_buf]. split; [|split; [|split]].
      * repeat split. now exists [e :: b].
      * intros Hf Hb. split; [|constructor]. apply Forall_app. split; [assumption|].
        constructor; [|constructor]. repeat split; [discriminate | exact Ebo | exact Hb].
      * rewrite concat_app. cbn. now rewrite !app_nil_r.
      * reflexivity.
    + rewrite Eb. split; [apply grows_refl|]. split; [auto|]. split; [reflexivity | discriminate].
Qed.

(* stated on the very term [step] reduces to; keep = false is Close, which drops the writer *)
Lemma flush_step f w (keep : bool) st' r :
  (let '(f', w', r') := flush f w in (mkS (Some f') (if keep then Some w' else None), r')) = (st', r) ->
  keeps (mkS (Some f) (Some w)) st' /\ (r = ROk -> log st' = log (mkS (Some f) (Some w))).
Proof.
  destruct (flush f w) as [[f' w'] r'] eqn:Efl. intros [= <- <-].
  apply flush_spec in Efl as (G & Hwf & Hl & Hr). unfold keeps, Inv, log. cbn [s_file s_w file_log].
  split; [split|].
  - intros [Hf Hb]. destruct (Hwf Hf Hb). now destruct keep.
  - intros ? [= <-]. eauto.
  - intro E. rewrite <- Hl. destruct keep; cbn [w_buf]; now rewrite ?(Hr E).
Qed.

Lemma buffer_step f w e :
  encodable e = true ->
  let st' := mkS (Some f) (Some (mkW (w_buf w ++ [e]) (w_bc w) (w_ec w))) in
  keeps (mkS (Some f) (Some w)) st' /\ log st' = log (mkS (Some f) (Some w)) ++ [e].
Proof.
  intro He. unfold keeps, Inv, log. cbn [s_file s_w file_log w_buf]. split; [split|].
  - intros [Hf Hb]. split; [assumption|]. apply Forall_app. now repeat constructor.
  - intros ? [= <-]. eauto using grows_refl.
  - apply app_assoc.
Qed.

Lemma step_spec st op st' r :
  step st op = (st', r) -> keeps st st' /\ (r = ROk -> log st' = log st ++ ents op).
Proof.
  assert (Hsame : forall r0, (r0 = ROk -> ents op = []) -> (st, r0) = (st', r) ->
                  keeps st st' /\ (r = ROk -> log st' = log st ++ ents op)).
  { intros r0 He [= <- <-]. split; [apply keeps_refl|]. intros ->%He. now rewrite app_nil_r. }
  destruct st as [[f|] [w|]], op as [nm|e fl| | |]; cbn [Writer.step s_file s_w andb].
  (* the operations the state does not fit: nothing changes *)
  all: try (apply Hsame; (discriminate || reflexivity)).
  - (* write *)
    destruct (encodable e) eqn:Ee; cbn [negb]; [|apply Hsame; discriminate].
    destruct (buffer_step f w e Ee) as [Hk1 Hl1]. destruct (fl || _).
    + (* buffer, then flush *)
      intros [Hk2 Hl2]%(flush_step f _ true). split; [eauto using keeps_trans|].
      intro Hr. now rewrite (Hl2 Hr), Hl1.
    + intros [= <- <-]. auto.
  - (* flush *) rewrite app_nil_r. exact (flush_step f w true st' r).
  - (* sync *) rewrite app_nil_r. exact (flush_step f w true st' r).
  - (* close *) rewrite app_nil_r. exact (flush_step f w false st' r).
  - (* open an existing file *)
    intros [= <- <-]. unfold keeps, Inv, log. cbn. split; [split|].
    + intro Hf. split; [exact Hf | constructor].
    + intros ? [= <-]. eauto using grows_refl.
    + now rewrite !app_nil_r.
  - (* create *)
    destruct (MaxNameSize <? nmlen nm); [apply Hsame; discriminate|].
    intros [= <- <-]. unfold keeps, Inv, log. cbn. split; [split|].
    + split; constructor.
    + discriminate.
    + reflexivity.
Qed.

Lemma run_spec ops : forall st st' rs,
  run st ops = (st', rs) ->
  keeps st st' /\ (all_ok rs = true -> log st' = log st ++ flat_map ents ops).
Proof.
  induction ops as [|op ops IH]; intros st st' rs; cbn [Writer.run].
  - intros [= <- <-]. split; [apply keeps_refl | now rewrite app_nil_r].
  - destruct (step st op) as [st1 r] eqn:E1. destruct (run st1 ops) as [st2 rs2] eqn:E2.
    intros [= <- <-]. destruct (step_spec _ _ _ _ E1) as [Hk1 Hl1], (IH _ _ _ E2) as [Hk2 Hl2].
    split; [eauto using keeps_trans|]. cbn [all_ok forallb flat_map].
    intros [Hr Hrs]%andb_true_iff. destruct r; [|discriminate].
    now rewrite (Hl2 Hrs), (Hl1 eq_refl), app_assoc.
Qed.

Lemma run_inv ops st : Inv st -> Inv (fst (run st ops)).
Proof. destruct (run st ops) as [st' rs] eqn:E. apply (run_spec _ _ _ _ E). Qed.

Lemma closed_log (st : state) f : s_w st = None -> s_file st = Some f -> log st = concat (f_blocks f).
Proof. unfold log. intros -> ->. apply app_nil_r. Qed.

Lemma Inv_closed f : wf_file f -> Inv (mkS (Some f) None).
Proof. exact (fun H => H). Qed.

Lemma Inv_created nm : Inv (mkS (Some (mkF Version3 nm 0 0 [])) (Some (mkW [] 0 0))).
Proof. split; constructor. Qed.

Lemma Inv_wf_file st f : Inv st -> s_file st = Some f -> wf_file f.
Proof. unfold Inv. intros HI Hf. rewrite Hf in HI. destruct (s_w st); [exact (proj1 HI) | exact HI]. Qed.

Lemma run_file ops st st' rs f0 f :
  run st ops = (st', rs) -> Inv st -> s_file st = Some f0 -> s_file st' = Some f ->
  wf_file f /\ grows f0 f.
Proof.
  intros [[HI Hg] _]%run_spec HI0 Hf0 Hf. destruct (Hg _ Hf0) as (f' & Hf' & G).
  rewrite Hf in Hf'. injection Hf' as <-. eauto using Inv_wf_file.
Qed.

Lemma run_app guard ops1 : forall ops2 st st1 rs1 st2 rs2,
  Writer.run K D NM klen dlen nmlen cfits guard st ops1 = (st1, rs1) ->
  Writer.run K D NM klen dlen nmlen cfits guard st1 ops2 = (st2, rs2) ->
  Writer.run K D NM klen dlen nmlen cfits guard st (ops1 ++ ops2) = (st2, rs1 ++ rs2).
Proof.
  induction ops1 as [|op ops1 IH]; intros ops2 st st1 rs1 st2 rs2; cbn [Writer.run app].
  - now intros [= <- <-].
  - destruct (Writer.step _ _ _ _ _ _ _ _ st op) as [sa r].
    destruct (Writer.run _ _ _ _ _ _ _ _ sa ops1) as [sb rsb] eqn:E.
    intros [= <- <-] H2. now rewrite (IH _ _ _ _ _ _ E H2).
Qed.

Lemma step_create st op f' :
  s_file st = None -> s_file (fst (step st op)) = Some f' ->
  exists nm, op = OOpen nm /\ f_name f' = nm /\ f_ver f' = Version3 /\ f_blocks f' = [] /\ nmlen nm <= MaxNameSize.
Proof.
  destruct st as [[f0|] [w|]]; cbn [s_file s_w]; intro H; try discriminate;
  destruct op as [nm|e fl| | |]; cbn [Writer.step s_file s_w fst andb]; try discriminate.
  destruct (MaxNameSize <? nmlen nm) eqn:E; cbn; [discriminate|].
  intro H1; inversion H1; subst. exists nm. cbn. repeat split; auto. apply N.ltb_ge in E. exact E.
Qed.

Theorem write_unencodable_rejected st e fl :
  encodable e = false -> step st (OWrite e fl) = (st, RErr).
Proof.
  intro He. destruct st as [[f|] [w|]]; cbn [Writer.step s_file s_w andb]; try reflexivity.
  now rewrite He.
Qed.

Theorem write_ok_encodable st e fl st' :
  step st (OWrite e fl) = (st', ROk) -> encodable e = true.
Proof.
  destruct (encodable e) eqn:He; [reflexivity|].
  rewrite (write_unencodable_rejected st e fl He). discriminate.
Qed.

Theorem open_long_name_rejected nm :
  MaxNameSize < nmlen nm -> step init (OOpen nm) = (init, RErr).
Proof.
  intro H. cbn. apply N.ltb_lt in H. now rewrite H.
Qed.

Fixpoint first_open (ops : list (wop K D NM)) : option NM :=
  match ops with
  | [] => None
  | OOpen nm :: _ => Some nm
  | _ :: t => first_open t
  end.

Lemma first_open_app a b :
  first_open (a ++ b) = match first_open a with Some n => Some n | None => first_open b end.
Proof. induction a as [|[] a IH]; cbn [app first_open]; auto. Qed.

Lemma run_first_open ops : forall st' rs f,
  run init ops = (st', rs) -> all_ok rs = true -> s_file st' = Some f ->
  first_open ops = Some (f_name f) /\ f_ver f = Version3 /\ nmlen (f_name f) <= MaxNameSize.
Proof.
  induction ops as [|op ops IH]; intros st' rs f; cbn [Writer.run].
  - intros [= <- <-]. discriminate.
  - destruct (step init op) as [st1 r] eqn:E1. destruct (run st1 ops) as [st2 rs2] eqn:E2.
    intros [= <- <-]. cbn [all_ok forallb]. intros [Hr Hrs]%andb_true_iff Hf.
    (* Write, Flush, Sync on the initial state are errors *)
    destruct op as [nm|e fl| | |]; cbn in E1; try (injection E1 as <- <-; discriminate).
    + (* Open: the file is created here under nm and only grows from then on *)
      destruct (MaxNameSize <? nmlen nm) eqn:En; injection E1 as <- <-; [discriminate|].
      destruct (run_file _ _ _ _ _ _ E2 (Inv_created nm) eq_refl Hf) as (_ & Hn & Hv & _).
      cbn in Hn, Hv. rewrite Hn, Hv.
      apply N.ltb_ge in En. auto.
    + (* Close: nothing changes *) injection E1 as <- <-. exact (IH _ _ _ E2 Hrs Hf).
Qed.

Section AnyResults.
Hypothesis cfits_true : forall b, cfits b = true.

(* strictly below the 65535-entry cap: what the automatic flush of WriteEntry maintains, and
   with cfits_true what makes every flush succeed *)
Definition InvC (st : state) : Prop :=
  match s_w st with Some w => nlen (w_buf w) < MaxEntriesPerBlock | None => True end.

Definition acc1 (op : wop K D NM) (r : res) : list lent :=
  match r with ROk => ents op | RErr => [] end.
Fixpoint accepted (ops : list (wop K D NM)) (rs : list res) : list lent :=
  match ops, rs with
  | op :: t, r :: rt => acc1 op r ++ accepted t rt
  | _, _ => []
  end.

Lemma flush_below_cap f w (keep : bool) st' r :
  nlen (w_buf w) <= MaxEntriesPerBlock ->
  (let '(f', w', r') := flush f w in (mkS (Some f') (if keep then Some w' else None), r')) = (st', r) ->
  InvC st' /\ r = ROk.
Proof.
  intro H. unfold Writer.flush, InvC. destruct (w_buf w) as [|e b] eqn:Eb.
  - intros [= <- <-]. destruct keep; cbn [s_w]; now rewrite ?Eb.
  - unfold Writer.block_ok. rewrite cfits_true. apply N.leb_le in H. rewrite H.
    intros [= <- <-]. now destruct keep.
Qed.

Lemma step_any_result st op st' r :
  InvC st -> step st op = (st', r) ->
  InvC st' /\ log st' = log st ++ acc1 op r /\ (r = RErr -> st' = st).
Proof.
  intros HI E.
  (* the log follows from step_spec once a failing call is known to change nothing *)
  enough (H : InvC st' /\ (r = RErr -> st' = st)).
  { destruct H as [HI' Hs]. repeat split; [exact HI' | | exact Hs]. destruct r.
    - exact (proj2 (step_spec _ _ _ _ E) eq_refl).
    - rewrite (Hs eq_refl). symmetry. apply app_nil_r. }
  revert E.
  (* [try]: the operations the state does not fit, and Open of an existing file *)
  destruct st as [[f|] [w|]], op as [nm|e fl| | |]; cbn [Writer.step s_file s_w andb];
    try (intros [= <- <-]; now auto); unfold InvC in HI; cbn [s_w] in HI.
  - (* write *)
    destruct (encodable e); cbn [negb]; [|intros [= <- <-]; now auto].
    set (w1 := mkW (w_buf w ++ [e]) (w_bc w) (w_ec w)).
    assert (Hn1 : nlen (w_buf w1) = nlen (w_buf w) + 1).
    { unfold nlen. cbn. rewrite app_length. cbn. lia. }
    destruct (fl || _) eqn:Ecap.
    + intros [HI' ->]%(flush_below_cap f w1 true); [now split | lia].
    + apply orb_false_iff in Ecap as [_ Ecap]. apply N.leb_gt in Ecap.
      intros [= <- <-]. now split.
  - (* flush *) intros [HI' ->]%(flush_below_cap f w true); [now split | lia].
  - (* sync *) intros [HI' ->]%(flush_below_cap f w true); [now split | lia].
  - (* close *) intros [HI' ->]%(flush_below_cap f w false); [now split | lia].
  - (* create *) destruct (MaxNameSize <? nmlen nm); intros [= <- <-]; now auto.
Qed.

Lemma run_any_results ops : forall st st' rs,
  InvC st -> run st ops = (st', rs) ->
  InvC st' /\ log st' = log st ++ accepted ops rs /\ length rs = length ops.
Proof.
  induction ops as [|op ops IH]; intros st st' rs HI.
  - cbn. intro H; inversion H; subst. rewrite app_nil_r. auto.
  - cbn [Writer.run]. destruct (step st op) as [st1 r] eqn:E1.
    destruct (run st1 ops) as [st2 rs2] eqn:E2. intro H; inversion H; subst.
    destruct (step_any_result _ _ _ _ HI E1) as (HI1 & HL1 & _).
    destruct (IH _ _ _ HI1 E2) as (HI2 & HL2 & Hlen).
    split; [exact HI2|]. split; [|cbn; now rewrite Hlen].
    rewrite HL2, HL1. cbn [accepted]. now rewrite app_assoc.
Qed.

End AnyResults.

End WriterProofs.

Arguments run_spec {K D NM klen dlen nmlen cfits ops st st' rs}.
Arguments run_file {K D NM klen dlen nmlen cfits ops st st' rs f0 f}.
Arguments run_first_open {K D NM klen dlen nmlen cfits ops st' rs f}.
Arguments run_app {K D NM klen dlen nmlen cfits guard ops1 ops2 st st1 rs1 st2 rs2}.
Arguments closed_log {K D NM st f}.
Arguments Inv_wf_file {K D NM klen dlen cfits st f}.
Arguments Inv_closed {K D NM klen dlen cfits f}.
Arguments Inv_created {K D NM klen dlen cfits} nm.
