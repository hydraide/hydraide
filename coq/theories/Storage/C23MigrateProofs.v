(* Storage/C23MigrateProofs.v — the migrated file holds what the legacy engine loads (model:
   Storage/C23Migrate.v). The legacy Load of clean files that agree on shared keys does not depend on
   the order of the files; on such a folder the migrator writes the compaction of that load, which
   C03 shows loads back to it; folders written by the V1 engine are of that kind. Whatever fails
   on the way, the V1 folder is untouched; it goes only after a success or when it held no record
   ([failure_leaves_v1_intact]). *)
From HV Require Import Base.Prelude Storage.C03Compact Storage.C03CompactProofs Storage.C23Migrate.
Local Open Scope N_scope.

Lemma option_ext : forall {A} (a b : option A), (forall v, a = Some v <-> b = Some v) -> a = b.
Proof.
  intros A a b H. destruct a as [x|]; [symmetry; apply H; reflexivity|].
  destruct b as [y|]; [apply H; reflexivity | reflexivity].
Qed.

Lemma nodup_fst_functional : forall {A B} (l : list (A * B)) k v w,
  NoDup (map fst l) -> In (k, v) l -> In (k, w) l -> v = w.
Proof.
  intros A B l k v w Hnd Hv Hw. apply in_split in Hv as [l1 [l2 ->]].
  rewrite map_app in Hnd. apply NoDup_remove_2 in Hnd. rewrite <- map_app in Hnd.
  apply in_elt_inv in Hw as [E|Hw]; [congruence | destruct (Hnd (in_map fst _ _ Hw))].
Qed.

Lemma keys_filter : forall {A B} (q : A -> bool) (l : list (A * B)),
  map fst (filter (fun p => q (fst p)) l) = filter q (map fst l).
Proof.
  intros A B q l. induction l as [|p t IH]; [reflexivity|]. simpl.
  destruct (q (fst p)); simpl; [f_equal|]; exact IH.
Qed.

Definition segs_lookup (k : key) (l : list seg) : option pay := ilookup k (fold_left seg_apply l []).
Definition file_lookup (k : key) (f : vfile) : option pay := segs_lookup k (segs_of f).

Lemma fold_seg_lookup : forall l acc k,
  ilookup k (fold_left seg_apply l acc) = or_else (segs_lookup k l) (ilookup k acc).
Proof.
  unfold segs_lookup. induction l as [|s t IH]; intros acc k; [reflexivity|].
  cbn [fold_left]. rewrite (IH (seg_apply acc s)), (IH (seg_apply [] s)).
  destruct (ilookup k (fold_left seg_apply t [])); [reflexivity|]. cbn [or_else].
  destruct s as [k' v'|]; [|reflexivity]. cbn [seg_apply]. rewrite !ilookup_iset.
  destruct (k' =? k); reflexivity.
Qed.

Lemma segs_lookup_app : forall k a b,
  segs_lookup k (a ++ b) = or_else (segs_lookup k b) (segs_lookup k a).
Proof. intros. unfold segs_lookup at 1. rewrite fold_left_app. apply fold_seg_lookup. Qed.

Lemma segs_lookup_in : forall k v l, segs_lookup k l = Some v -> In (SOk k v) l.
Proof.
  intros k v l. unfold segs_lookup. revert k v.
  apply (fold_left_inv (fun ix => forall k v, ilookup k ix = Some v -> In (SOk k v) l)); [|discriminate].
  intros ix [k' v'|] Hin IH k v; [|apply IH]. cbn [seg_apply]. rewrite ilookup_iset.
  destruct (N.eqb_spec k' k) as [<-|]; [intros [= <-]; exact Hin | apply IH].
Qed.

(* implied by "no key in two chunk files" ([nodup_folder_consistent]) *)
Definition consistent (fs : list vfile) : Prop :=
  forall k f g v w, In f fs -> In g fs -> file_lookup k f = Some v -> file_lookup k g = Some w -> v = w.

Lemma consistent_tail : forall f t, consistent (f :: t) -> consistent t.
Proof. intros f t H k a b v w Ha Hb; apply H; right; assumption. Qed.

Lemma lookup_files : forall fs, consistent fs -> forall k v,
  segs_lookup k (flat_map segs_of fs) = Some v <-> exists f, In f fs /\ file_lookup k f = Some v.
Proof.
  induction fs as [|f t IH]; intros Hc k v.
  - simpl. split; [discriminate | intros [f [[] _]]].
  - cbn [flat_map]. rewrite segs_lookup_app. specialize (IH (consistent_tail _ _ Hc) k).
    destruct (segs_lookup k (flat_map segs_of t)) as [w|] eqn:Et; cbn [or_else].
    + destruct (proj1 (IH w) eq_refl) as [g [Hg Hl]]. split.
      * intros E; inversion E; subst w. exists g; split; [right; exact Hg | exact Hl].
      * intros [g' [Hg' Hl']]. f_equal. apply (Hc k g g' w v); [right; exact Hg | exact Hg' | exact Hl | exact Hl'].
    + split.
      * intros E. exists f; split; [left; reflexivity | exact E].
      * intros [g [[<-|Hg] Hl]]; [exact Hl|].
        assert (None = Some v) by (apply IH; exists g; auto). discriminate.
Qed.

Lemma lookup_same_members : forall a b,
  (forall f, In f a <-> In f b) -> consistent b ->
  forall k, segs_lookup k (flat_map segs_of a) = segs_lookup k (flat_map segs_of b).
Proof.
  intros a b Hm Hc k. apply option_ext. intros v.
  assert (Hca : consistent a) by (intros k' f g v' w Hf Hg; apply Hc; apply Hm; assumption).
  rewrite (lookup_files a Hca), (lookup_files b Hc).
  split; intros [f [Hf Hl]]; exists f; (split; [apply Hm; exact Hf | exact Hl]).
Qed.

(* what loadV1Swamp accepts without error *)
Definition clean_file (f : vfile) : Prop :=
  vf_hex f = true /\ exists l, vf_content f = VSegs l /\ existsb seg_bad l = false.
Definition clean (fs : list vfile) : Prop := forall f, In f fs -> clean_file f.

Lemma clean_passes : forall fs, clean fs ->
  filter vf_hex fs = fs /\
  existsb (fun f => match vf_content f with VUnreadable => true | _ => false end) fs = false /\
  existsb seg_bad (flat_map segs_of fs) = false.
Proof.
  induction fs as [|f t IH]; intros Hc; [repeat split|].
  destruct (Hc f (or_introl eq_refl)) as [Hx [l [El Hb]]].
  destruct (IH (fun g Hg => Hc g (or_intror Hg))) as [I1 [I2 I3]].
  cbn [filter existsb flat_map]. unfold segs_of at 1. rewrite existsb_app, Hx, El, Hb, I1, I2, I3.
  repeat split.
Qed.

Lemma v1_load_clean : forall fs, clean fs -> v1_load fs = fold_left seg_apply (flat_map segs_of fs) [].
Proof. intros fs Hc. unfold v1_load. rewrite (proj2 (proj2 (clean_passes fs Hc))). reflexivity. Qed.

Lemma verify_ok_fresh : forall nm ix perm,
  covers perm ix -> verify_ok (PreFile (FGood nm (compact_entries ix perm))) ix = true.
Proof.
  intros nm ix perm Hc. unfold verify_ok, hyd_img, load_index.
  destruct (compact_preserves_index ix nm perm Hc) as [Hl _].
  destruct (load_entries nm (compact_entries ix perm)) as [lix lnm]. simpl in Hl.
  apply forallb_forall. intros p Hp. rewrite Hl.
  destruct (ilookup (fst p) ix) eqn:E; [reflexivity|]. exfalso. exact (ilookup_in ix p Hp E).
Qed.

Lemma v1_load_order : forall files order,
  clean files -> consistent files -> (forall f, In f order <-> In f files) ->
  forall k, ilookup k (v1_load order) = ilookup k (v1_load files).
Proof.
  intros files order Hcl Hco Hm k.
  rewrite (v1_load_clean files Hcl), (v1_load_clean order) by (intros f Hf; apply Hcl, Hm, Hf).
  exact (lookup_same_members order files Hm Hco k).
Qed.

Theorem migrate_fresh : forall cfg perm folder pre,
  let ix := v1_load (v1_files folder) in
  clean (v1_files folder) -> dry_run cfg = false -> ix <> [] -> covers perm ix ->
  pre = PreNone \/ pre = PreShort ->
  migrate cfg perm WNoFault folder pre =
    (MS (if delete_old cfg then None else Some folder)
        (PreFile (FGood (v1_meta folder) (compact_entries ix perm))), PSuccess).
Proof.
  intros cfg perm folder pre ix Hcl Hdry Hne Hcov Hpre.
  destruct (clean_passes _ Hcl) as [H1 [H2 H3]].
  unfold migrate, mig_load. rewrite H1, H2, H3, <- (v1_load_clean _ Hcl). fold ix.
  (* [migrate] branches on the index being empty: show it a cons cell, then call it [ix] again *)
  destruct ix as [|p0 ix0] eqn:Eix; [congruence|]. rewrite <- Eix in *.
  rewrite Hdry. unfold write_v2. destruct Hpre as [-> | ->]; cbn [open_target fappend app];
    rewrite (verify_ok_fresh (v1_meta folder) ix perm Hcov), andb_false_r; reflexivity.
Qed.

Theorem failure_leaves_v1_intact : forall cfg perm wf folder pre st ph,
  migrate cfg perm wf folder pre = (st, ph) ->
  (m_v1 st = Some folder \/ m_v1 st = None) /\
  (m_v1 st = None -> delete_old cfg = true /\ dry_run cfg = false /\ (ph = PSuccess \/ ph = PSkippedEmpty)) /\
  (ph = PSuccess -> wf = WNoFault /\
     (verify cfg = true -> exists ix, mig_load (v1_files folder) = MLOk ix /\ verify_ok (m_hyd st) ix = true)) /\
  (ph = PFailVerify -> m_hyd st = PreNone) /\
  (ph = PFailLoad \/ ph = PDryRun \/ ph = PSkippedEmpty -> m_hyd st = pre).
Proof.
  intros [dr vf dl] perm wf folder pre st ph. unfold migrate, write_v2. cbn [dry_run verify delete_old].
  (* the decision tree of migrateSwamp *)
  destruct (mig_load (v1_files folder)) as [|[|p0 ix0]] eqn:El;
    [ (* load error *)
    | (* empty folder *) destruct dr
    | destruct dr;
      [ (* dry-run *)
      | destruct (open_target pre (v1_meta folder)) as [f0|];
        [ destruct wf;
          [ (* no fault: verification fails, or success *) destruct (vf && negb (verify_ok _ _)) eqn:Ev
          | (* fault while creating *) destruct pre
          | (* fault while writing *) ]
        | (* the writer cannot open the target *) ] ] ].
  all: intros E; injection E as <- <-; cbn [m_v1 m_hyd].
  (* the success leaf: --verify was off, or the check has passed *)
  all: try apply andb_false_iff in Ev as [->|Ev%negb_false_iff].
  all: destruct dl; repeat split; try (intros [?|[?|?]]); intros; try discriminate; auto.
  (* what is left is success with --verify on *)
  all: exists (p0 :: ix0); split; [reflexivity|exact Ev].
Qed.

Lemma all_keys_concat : forall cs, all_keys cs = map fst (concat cs).
Proof. intros. unfold all_keys. rewrite flat_map_concat_map, concat_map. reflexivity. Qed.

Lemma concat_app_last : forall cs p, concat (app_last cs p) = concat cs ++ [p].
Proof.
  induction cs as [|c [|c' t'] IH]; intros p; [reflexivity | cbn; rewrite !app_nil_r; reflexivity |].
  change (app_last (c :: c' :: t') p) with (c :: app_last (c' :: t') p).
  cbn [concat] in *. rewrite IH, app_assoc. reflexivity.
Qed.

Lemma concat_drop_empty : forall cs : list chunk,
  concat (filter (fun c : chunk => negb (match c with [] => true | _ => false end)) cs) = concat cs.
Proof.
  induction cs as [|[|p c'] t IH]; [reflexivity | exact IH | cbn [filter negb concat]; rewrite IH; reflexivity].
Qed.

Lemma all_keys_step : forall cs o,
  all_keys (v1_step cs o) =
  match o with
  | WNew k _ _ => all_keys cs ++ [k]
  | WModify _ _ => all_keys cs
  | WDelete k => filter (fun x => negb (x =? k)) (all_keys cs)
  end.
Proof.
  intros cs [k v ro|k v|k]; rewrite !all_keys_concat; cbn [v1_step].
  - destruct ro; [rewrite concat_app; cbn [concat]; rewrite app_nil_r | rewrite concat_app_last];
      apply map_app.
  - rewrite <- concat_map, map_map. apply map_ext. intros [k' v']. cbn [fst].
    destruct (N.eqb_spec k' k); [symmetry; assumption | reflexivity].
  - rewrite concat_drop_empty, concat_filter_map. apply (keys_filter (fun x => negb (x =? k))).
Qed.

Lemma folder_has_in : forall k cs, folder_has k cs = false -> ~ In k (all_keys cs).
Proof.
  intros k cs H Hin. unfold all_keys in Hin. apply in_flat_map in Hin as [c [Hc Hk]].
  apply in_map_iff in Hk as [p [Hp Hpc]].
  assert (folder_has k cs = true); [|congruence].
  unfold folder_has. apply existsb_exists. exists c; split; [exact Hc|].
  unfold chunk_has. apply existsb_exists. exists p; split; [exact Hpc|]. apply N.eqb_eq. exact Hp.
Qed.

Theorem v1_write_inv : forall ops cs cs',
  NoDup (all_keys cs) -> v1_run cs ops = Some cs' -> NoDup (all_keys cs').
Proof.
  induction ops as [|o t IH]; intros cs cs' Hnd Hr; simpl in Hr.
  - inversion Hr; subst; exact Hnd.
  - destruct (op_ok cs o) eqn:Hok; [|discriminate]. apply (IH (v1_step cs o)); [|exact Hr].
    rewrite all_keys_step. destruct o as [k v ro|k v|k]; [|exact Hnd | apply NoDup_filter; exact Hnd].
    (* a key is submitted as new only when no chunk holds it *)
    apply negb_true_iff, folder_has_in in Hok.
    apply (NoDup_Add (Add_app k (all_keys cs) [])). rewrite app_nil_r. split; assumption.
Qed.

Lemma chunk_file_lookup_in : forall k c v, file_lookup k (chunk_file c) = Some v -> In (k, v) c.
Proof.
  intros k c v H. apply segs_lookup_in, in_map_iff in H as [[k' v'] [E Hp]].
  injection E as -> ->. exact Hp.
Qed.

(* with all keys distinct the chunks together are one association list, and every file reads from it *)
Lemma nodup_folder_consistent : forall cs, NoDup (all_keys cs) -> consistent (map chunk_file cs).
Proof.
  intros cs Hnd k f g v w Hf Hg Lf Lg.
  apply in_map_iff in Hf as [c1 [<- H1]]. apply in_map_iff in Hg as [c2 [<- H2]].
  apply chunk_file_lookup_in in Lf, Lg. rewrite all_keys_concat in Hnd.
  apply (nodup_fst_functional (concat cs) k v w Hnd); apply in_concat; eauto.
Qed.

Lemma chunk_folder_clean : forall cs, clean (map chunk_file cs).
Proof.
  intros cs f Hf. apply in_map_iff in Hf as [c [<- _]]. split; [reflexivity|].
  eexists; split; [reflexivity|]. induction c as [|p c' IH]; [reflexivity | exact IH].
Qed.

(* the folder of the refutations in Props/C23.v *)
Definition ex_folder : v1folder := V1 [VF true (VSegs [SOk 1 10; SOk 3 30])] 7.

(* non-vacuity: a history with rollover, modification and deletion *)
Example v1_history_example :
  v1_run [] [WNew 1 10 false; WNew 2 20 false; WNew 3 30 true; WModify 1 11; WDelete 2; WNew 2 21 false]
  = Some [[(1, 11)]; [(3, 30); (2, 21)]].
Proof. vm_compute; reflexivity. Qed.

Example migrate_example :
  migrate (CFG false true true) [3; 2; 1] WNoFault (V1 (map chunk_file [[(1, 11)]; [(3, 30); (2, 21)]]) 7) PreNone
  = (MS None (PreFile (FGood 7 [E OSet 3 30; E OSet 2 21; E OSet 1 11])), PSuccess).
Proof. vm_compute; reflexivity. Qed.
