(* Storage/C03CompactProofs.v — compaction keeps the stored state (model: Storage/C03Compact.v).
   Replaying what a compaction writes gives back the index it was written from; every compaction
   path leaves the old file or that new one at the .hyd path, so every chronicler entry point, and
   every sequence of them, keeps the state; a crash during the op list leaves old or new as well. *)
From HV Require Import Base.Prelude Storage.C03Compact.
Local Open Scope N_scope.

Lemma ilookup_idel : forall k k' ix, ilookup k (idel k' ix) = if k' =? k then None else ilookup k ix.
Proof.
  intros k k' ix; induction ix as [|[k2 v] t IH]; simpl.
  - destruct (k' =? k); reflexivity.
  - destruct (N.eqb_spec k2 k'); simpl; rewrite IH.
    + subst k2. destruct (k' =? k); reflexivity.
    + destruct (N.eqb_spec k2 k), (N.eqb_spec k' k); congruence.
Qed.

Lemma ilookup_iset : forall k k' v ix, ilookup k (iset k' v ix) = if k' =? k then Some v else ilookup k ix.
Proof. intros; unfold iset; simpl. rewrite ilookup_idel. destruct (k' =? k); reflexivity. Qed.

Lemma ilookup_in : forall (ix : index) p, In p ix -> ilookup (fst p) ix <> None.
Proof.
  induction ix as [|[k v] t IH]; intros p Hin; [destruct Hin|]. destruct Hin as [Hp|Hp]; simpl.
  - subst p. simpl. rewrite N.eqb_refl. discriminate.
  - destruct (k =? fst p); [discriminate | apply IH; exact Hp].
Qed.

Definition or_else (a b : option pay) : option pay := match a with Some _ => a | None => b end.

Definition st_equiv (a b : index * name) : Prop :=
  (forall k, ilookup k (fst a) = ilookup k (fst b)) /\ snd a = snd b.

Definition covers (perm : list key) (ix : index) : Prop :=
  forall k, ilookup k ix <> None -> In k perm.

Lemma covers_ikeys : forall ix, covers (ikeys ix) ix.
Proof.
  induction ix as [|[k' v] t IH]; intros k Hk; simpl in *; [congruence|].
  destruct (N.eqb_spec k' k); [left; assumption | right; apply IH; exact Hk].
Qed.

(* [acc] is typed as [load_entries] types its start, so that the equation rewrites there *)
Lemma load_compact_entries : forall ix perm (acc : list (key * pay)) nm,
  exists ix', fold_left apply_entry (compact_entries ix perm) (acc, nm) = (ix', nm) /\
    forall k, ilookup k ix' =
      if existsb (N.eqb k) perm then or_else (ilookup k ix) (ilookup k acc) else ilookup k acc.
Proof.
  unfold compact_entries. intros ix perm; induction perm as [|a p IH]; intros acc nm.
  - exists acc. split; reflexivity.
  - cbn [flat_map]. rewrite fold_left_app.
    set (acc' := match ilookup a ix with Some v => iset a v acc | None => acc end).
    destruct (IH acc' nm) as [ix' [E Hk]]. exists ix'. split.
    + unfold acc' in E. destruct (ilookup a ix); exact E.
    + intros k.
      assert (Ha : ilookup k acc' = if a =? k then or_else (ilookup k ix) (ilookup k acc) else ilookup k acc).
      { unfold acc'. destruct (ilookup a ix) eqn:Ea; rewrite ?ilookup_iset;
          destruct (N.eqb_spec a k) as [<-|]; rewrite ?Ea; reflexivity. }
      rewrite Hk, Ha. cbn [existsb]. rewrite (N.eqb_sym k a).
      destruct (a =? k), (existsb (N.eqb k) p), (ilookup k ix); reflexivity.
Qed.

Lemma compact_preserves_index : forall ix nm perm,
  covers perm ix ->
  st_equiv (load_entries nm (compact_entries ix perm)) (ix, nm).
Proof.
  intros ix nm perm Hc. unfold load_entries.
  destruct (load_compact_entries ix perm [] nm) as [ix' [-> Hk]].
  split; [|reflexivity]. intros k. cbn [fst]. rewrite Hk. cbn [ilookup].
  destruct (ilookup k ix) eqn:Ek; [|destruct (existsb (N.eqb k) perm); reflexivity].
  replace (existsb (N.eqb k) perm) with true; [reflexivity|].
  symmetry. apply existsb_exists. exists k. split; [apply Hc; congruence | apply N.eqb_refl].
Qed.

Definition state_of (s : fs) : option (index * name) :=
  match hyd s with Some f => load_index f | None => None end.

Definition old_or_new (f : fimg) (nm : name) (ix : index) (perm : list key) (s : fs) : Prop :=
  hyd s = Some f \/ hyd s = Some (FGood nm (compact_entries ix perm)).

Lemma old_or_new_loads : forall s f st nm' perm,
  load_index f = Some st -> covers perm (fst st) -> old_or_new f nm' (fst st) perm s ->
  exists st', state_of s = Some st' /\
    (forall k, ilookup k (fst st') = ilookup k (fst st)) /\ (snd st' = snd st \/ snd st' = nm').
Proof.
  intros s f st nm' perm Hl Hc [H|H]; unfold state_of; rewrite H.
  - exists st. split; [exact Hl | split; [reflexivity | left; reflexivity]].
  - destruct (compact_preserves_index (fst st) nm' perm Hc) as [Hk Hn].
    eexists. split; [reflexivity | split; [exact Hk | right; exact Hn]].
Qed.

(* Compactor.Compact as repaired (rm_first = true) *)
Lemma compactor_compact_hyd : forall go perm s f st,
  hyd s = Some f -> load_index f = Some st ->
  old_or_new f (snd st) (fst st) perm (fst (compactor_compact true go perm s)).
Proof.
  intros go perm s f [ix nm] Hh Hl. unfold compactor_compact. rewrite Hh, Hl.
  destruct go; [|left; exact Hh].
  (* the stale temp is gone, or the call fails before it touches anything *)
  destruct (tmp s) as [[f0|]|]; [right; reflexivity | left; exact Hh | right; reflexivity].
Qed.

(* maybeCompactInline ([go1] = its trigger) in front of runCompactionLocked; ForceCompaction is [go1 = true] *)
Lemma run_compaction_hyd : forall (go1 : bool) go2 perm s f st,
  hyd s = Some f -> load_index f = Some st ->
  old_or_new f (snd st) (fst st) perm (if go1 then run_compaction true go2 perm s else s).
Proof.
  intros [|] go2 perm s f st Hh Hl; [|left; exact Hh].
  unfold run_compaction. apply compactor_compact_hyd; assumption.
Qed.

Lemma compact_from_index_hyd : forall nm ix perm s f,
  hyd s = Some f -> old_or_new f nm ix perm (fst (compact_from_index nm ix perm s)).
Proof.
  intros nm ix perm s f Hh. unfold compact_from_index. rewrite Hh.
  destruct (tmp s) as [[f0|]|]; [right; reflexivity | left; reflexivity | right; reflexivity].
Qed.

Definition ep_batch (e : ep) : list wr := match e with EWrite b _ _ _ => b | _ => [] end.
Definition ep_perm (e : ep) : list key :=
  match e with EWrite _ _ _ p | EClose _ _ p | EForce _ p | ELoad _ p | ECli _ p => p end.
Definition is_load (e : ep) : bool := match e with ELoad _ _ => true | _ => false end.

Definition wr_apply (ix : index) (w : wr) : index :=
  match snd w with Some v => iset (fst w) v ix | None => idel (fst w) ix end.

Lemma wr_apply_lookup : forall k ix w,
  ilookup k (wr_apply ix w) = if fst w =? k then snd w else ilookup k ix.
Proof. intros k ix [k' [v|]]; [apply ilookup_iset | apply ilookup_idel]. Qed.

Lemma fold_wr_entries : forall batch ix nm,
  fold_left apply_entry (map wr_entry batch) (ix, nm) = (fold_left wr_apply batch ix, nm).
Proof.
  induction batch as [|[k [v|]] t IH]; intros ix nm; [reflexivity | apply IH | apply IH].
Qed.

Lemma spec_apply_fold : forall ix batch, spec_apply ix batch = fold_left wr_apply batch ix.
Proof. intros. unfold spec_apply. rewrite fold_wr_entries. reflexivity. Qed.

Lemma spec_apply_cons : forall ix w t, spec_apply ix (w :: t) = spec_apply (wr_apply ix w) t.
Proof. intros. rewrite !spec_apply_fold. reflexivity. Qed.

Lemma spec_apply_app : forall ix a b, spec_apply ix (a ++ b) = spec_apply (spec_apply ix a) b.
Proof. intros. rewrite !spec_apply_fold. apply fold_left_app. Qed.

Lemma chron_append_state : forall c batch st,
  state_of (c_fs c) = Some st ->
  state_of (chron_append c batch) = Some (spec_apply (fst st) batch, snd st).
Proof.
  intros c batch [ix nm] Hs. unfold chron_append. destruct batch as [|w b]; [exact Hs|].
  unfold state_of in *. destruct (hyd (c_fs c)) as [[h es|h es|]|]; try discriminate.
  cbn [hyd fappend load_index] in *. unfold load_entries in *. rewrite fold_left_app.
  injection Hs as ->. rewrite fold_wr_entries, <- spec_apply_fold. reflexivity.
Qed.

Lemma step_hyd : forall c e f st,
  hyd (chron_append c (ep_batch e)) = Some f -> load_index f = Some st ->
  exists nm', (nm' = snd st \/ (is_load e = true /\ c_name c <> 0 /\ nm' = c_name c)) /\
              old_or_new f nm' (fst st) (ep_perm e) (c_fs (step true c e)).
Proof.
  intros c e f st Hh Hl.
  destruct e as [batch go1 go2 perm | go1 go2 perm | go2 perm | go perm | go perm];
    cbn [ep_batch ep_perm is_load step] in *.
  - exists (snd st). split; [left; reflexivity|].
    destruct batch; [left; exact Hh | apply run_compaction_hyd; assumption].
  - exists (snd st). split; [left; reflexivity | apply run_compaction_hyd; assumption].
  - exists (snd st). split; [left; reflexivity | apply (run_compaction_hyd true); assumption].
  - cbn [chron_append] in Hh. cbn [hyd]. rewrite Hh, Hl. destruct st as [ix nm]. cbn [fst snd].
    eexists. split; [|cbn [c_fs]; destruct go; [apply compact_from_index_hyd; reflexivity | left; reflexivity]].
    destruct (N.eqb_spec nm 0), (N.eqb_spec (c_name c) 0); cbn [negb andb];
      [left; congruence | right; auto | left; reflexivity | right; auto].
  - exists (snd st). split; [left; reflexivity | apply compactor_compact_hyd; assumption].
Qed.

Theorem step_preserves : forall c e st,
  state_of (c_fs c) = Some st ->
  covers (ep_perm e) (spec_apply (fst st) (ep_batch e)) ->
  exists st', state_of (c_fs (step true c e)) = Some st' /\
    (forall k, ilookup k (fst st') = ilookup k (spec_apply (fst st) (ep_batch e))) /\
    (snd st' = snd st \/ (is_load e = true /\ c_name c <> 0 /\ snd st' = c_name c)).
Proof.
  intros c e st Hs Hc. apply (chron_append_state c (ep_batch e)) in Hs. unfold state_of in Hs.
  destruct (hyd (chron_append c (ep_batch e))) as [f|] eqn:Hh; [|discriminate].
  destruct (step_hyd c e f _ Hh Hs) as [nm' [Hn Ho]].
  destruct (old_or_new_loads _ _ _ _ _ Hs Hc Ho) as [st' [Hst [Hk He]]].
  exists st'. split; [exact Hst|]. split; [exact Hk|].
  destruct He as [He|He]; [left; exact He | rewrite He; exact Hn].
Qed.

Lemma spec_apply_lookup_congr : forall k l a b,
  ilookup k a = ilookup k b -> ilookup k (spec_apply a l) = ilookup k (spec_apply b l).
Proof.
  intros k l; induction l as [|w t IH]; intros a b H; [exact H|].
  rewrite !spec_apply_cons. apply IH. rewrite !wr_apply_lookup. rewrite H. reflexivity.
Qed.

Lemma spec_apply_lookup_filter : forall k l ix,
  ilookup k (spec_apply ix l) = ilookup k (spec_apply ix (filter (fun w : wr => fst w =? k) l)).
Proof.
  intros k l; induction l as [|w t IH]; intros ix; [reflexivity|].
  cbn [filter]. destruct (fst w =? k) eqn:E.
  - rewrite !spec_apply_cons. apply IH.
  - rewrite spec_apply_cons, IH. apply spec_apply_lookup_congr.
    rewrite wr_apply_lookup, E. reflexivity.
Qed.

Fixpoint run_steps (c : chron) (es : list ep) : chron :=
  match es with [] => c | e :: t => run_steps (step true c e) t end.

(* a step from a state that does not load asks nothing: from a loadable start every later state
   loads ([run_preserves]), so the case does not arise there *)
Fixpoint steps_cover (c : chron) (es : list ep) : Prop :=
  match es with
  | [] => True
  | e :: t =>
    match state_of (c_fs c) with
    | Some st => covers (ep_perm e) (spec_apply (fst st) (ep_batch e))
    | None => True
    end /\ steps_cover (step true c e) t
  end.

(* Load adopts the stored name when none is configured; nothing else touches [c_name] *)
Lemma step_name : forall c e st,
  state_of (c_fs c) = Some st ->
  c_name (step true c e) = c_name c \/ c_name (step true c e) = snd st.
Proof.
  intros c e st Hs. destruct e as [[|w b] go1 go2 perm | | | go perm | ]; try (left; reflexivity).
  unfold state_of in Hs. cbn [step hyd]. destruct (hyd (c_fs c)) as [f|]; [|discriminate]. rewrite Hs.
  destruct st as [ix nm]. cbn [c_name snd]. destruct (negb (nm =? 0) && (c_name c =? 0)); auto.
Qed.

Theorem run_preserves : forall es c st,
  state_of (c_fs c) = Some st -> steps_cover c es ->
  exists st', state_of (c_fs (run_steps c es)) = Some st' /\
    (forall k, ilookup k (fst st') = ilookup k (spec_apply (fst st) (flat_map ep_batch es))) /\
    (snd st' = snd st \/ (existsb is_load es = true /\ c_name c <> 0 /\ snd st' = c_name c)).
Proof.
  induction es as [|e t IH]; intros c st Hs Hc.
  - exists st. split; [exact Hs | split; [reflexivity | left; reflexivity]].
  - destruct Hc as [Hc1 Hc2]. rewrite Hs in Hc1.
    destruct (step_preserves c e st Hs Hc1) as [st1 [H1 [H2 Hn1]]].
    destruct (IH (step true c e) st1 H1 Hc2) as [st' [H3 [H4 Hn]]].
    exists st'. split; [exact H3|]. split.
    + intros k. rewrite H4. cbn [flat_map]. rewrite spec_apply_app. apply spec_apply_lookup_congr. apply H2.
    + cbn [existsb].
      (* the tail changed the name to the configured one of its start: that is the configured one
         of [c], or the name [c] had stored *)
      destruct Hn as [Hn | [Ht [Hnz Hn]]]; [|destruct (step_name c e st Hs) as [Hcn|Hcn]].
      * rewrite Hn. destruct Hn1 as [Hn1 | [-> Hn1]]; [left; exact Hn1 | right; auto].
      * right. rewrite Ht, orb_true_r, <- Hcn. auto.
      * left. rewrite Hn. exact Hcn.
Qed.

(* non-vacuity of [step_preserves] and its [covers] hypothesis: a fragmented file with a deleted
   key, a stale temp holding that key under a foreign name, compaction through the CLI *)
Definition ex_file : fimg :=
  FGood 7 [E OSet 1 10; E OSet 2 20; E OSet 1 11; E ODel 2 0; E OSet 3 30; E OSet 3 31].
Definition ex_stale : node := NFile (FGood 9 [E OSet 2 20]).
Definition ex_chron : chron := CH (FS (Some ex_file) (Some ex_stale)) 7.

Example ex_covers : covers [3; 1] (fst (load_entries 7 [E OSet 1 10; E OSet 2 20; E OSet 1 11; E ODel 2 0; E OSet 3 30; E OSet 3 31])).
Proof. exact (covers_ikeys [(3, 31); (1, 11)]). Qed.

Example ex_cli_result :
  c_fs (step true ex_chron (ECli true [3; 1])) = FS (Some (FGood 7 [E OSet 3 31; E OSet 1 11])) None.
Proof. vm_compute; reflexivity. Qed.

Lemma trigger_monotone : forall enabled has_fn total live min_entries frag_gt,
  may_compact_inline enabled has_fn total live min_entries frag_gt = true ->
  (min_entries <= total /\ 2 * live <= total /\ live < total /\ frag_gt = true)%Z.
Proof.
  intros enabled has_fn total live mn fg. unfold may_compact_inline.
  (* the guards compare against the live count clamped at 0 *)
  set (l := if (live <? 0)%Z then 0%Z else live).
  assert (Hl : (live <= l)%Z) by (unfold l; destruct (Z.ltb_spec live 0); lia).
  destruct enabled, has_fn; try discriminate. cbn [negb].
  destruct (Z.ltb_spec total mn), (Z.ltb_spec total l), (Z.ltb_spec total (2 * l)),
    (Z.leb_spec (total - l) 0); try discriminate.
  intros ->. lia.
Qed.

Example trigger_example : may_compact_inline true true 300 10 100 true = true.
Proof. vm_compute; reflexivity. Qed.

Lemma entry_eqb_eq : forall a b, entry_eqb a b = true <-> a = b.
Proof.
  intros [o k p] [o' k' p']; unfold entry_eqb; cbn [e_op e_key e_pay].
  rewrite !andb_true_iff, !N.eqb_eq. split.
  - intros [[Ho ->] ->]. destruct o, o'; try discriminate; reflexivity.
  - intros [= -> -> ->]. destruct o'; auto.
Qed.

Lemma fimg_eqb_eq : forall a b, fimg_eqb a b = true -> a = b.
Proof.
  intros [h es|h es|] [h' es'|h' es'|]; simpl; intros H; try discriminate; try reflexivity;
    apply andb_true_iff in H as [H1 H2]; apply N.eqb_eq in H1;
    apply (list_eqb_eq entry_eqb entry_eqb_eq) in H2; subst; reflexivity.
Qed.

Lemma fimg_eqb_refl : forall a, fimg_eqb a a = true.
Proof.
  intros [h es|h es|]; simpl; try reflexivity; rewrite N.eqb_refl; simpl;
    apply (list_eqb_eq entry_eqb entry_eqb_eq); reflexivity.
Qed.

(* under the check, every rename executed so far moved [newf], fsynced *)
Lemma safe_from_renames : forall newf done rest v,
  safe_from newf v (done ++ rest) = true -> Forall (eq (newf, true)) (v_renames v) ->
  Forall (eq (newf, true)) (v_renames (vrun_from v done)).
Proof.
  intros newf done rest; induction done as [|o t IH]; intros v Hs Hr; [exact Hr|].
  cbn [app safe_from] in Hs. apply andb_true_iff in Hs as [Ho Hs]. apply (IH (vstep v o) Hs).
  destruct o; try exact Hr. cbn [vstep]. destruct (v_tmp v) as [f|]; [|exact Hr].
  apply andb_true_iff in Ho as [-> Hf]. apply fimg_eqb_eq in Hf as ->.
  constructor; [reflexivity | exact Hr].
Qed.

Lemma crash_atomic_of_safe : forall old newf done rest img,
  safe_ops newf (done ++ rest) = true -> crash_image old done img ->
  hyd img = Some old \/ hyd img = Some newf.
Proof.
  intros old newf done rest img Hs Hc.
  pose proof (safe_from_renames newf done rest vinit Hs (Forall_nil _)) as Hr.
  rewrite Forall_forall in Hr.
  destruct Hc as [t | f t H | f g t H]; [left; reflexivity | |]; apply Hr in H;
    [injection H as <-; right; reflexivity | discriminate].
Qed.

(* the header rewrite behind the blocks leaves the temp unsynced *)
Lemma safe_from_blocks : forall newf blocks rest h es syn rn,
  safe_from newf (VS (Some (FGood h es)) syn rn)
    (flat_map (fun b => [CAppendTmp b; CHeaderTmp]) blocks ++ CHeaderTmp :: rest)
  = safe_from newf (VS (Some (FGood h (es ++ concat blocks))) false rn) rest.
Proof.
  intros newf blocks rest; induction blocks as [|b t IH]; intros h es syn rn.
  - cbn [flat_map concat app]. rewrite app_nil_r. reflexivity.
  - cbn [flat_map concat app safe_from vstep v_tmp v_renames option_map fappend andb].
    rewrite IH, <- app_assoc. reflexivity.
Qed.

Lemma compact_ops_safe : forall nm blocks,
  safe_ops (FGood nm (concat blocks)) (compact_ops nm blocks) = true.
Proof.
  intros nm blocks. unfold safe_ops, compact_ops. cbn [app safe_from vstep vinit v_tmp v_renames andb].
  rewrite safe_from_blocks.
  cbn [safe_from vstep v_tmp v_synced andb app]. rewrite fimg_eqb_refl. reflexivity.
Qed.

Theorem crash_loads_old : forall old st perm done rest img,
  load_index old = Some st -> covers perm (fst st) ->
  safe_ops (FGood (snd st) (compact_entries (fst st) perm)) (done ++ rest) = true ->
  crash_image old done img ->
  old_or_new old (snd st) (fst st) perm img /\
  exists st', state_of img = Some st' /\ st_equiv st' st.
Proof.
  intros old st perm done rest img Hl Hc Hs Hci.
  pose proof (crash_atomic_of_safe old _ done rest img Hs Hci) as H. split; [exact H|].
  destruct (old_or_new_loads img old st (snd st) perm Hl Hc H) as [st' [Hst [Hk He]]].
  exists st'. split; [exact Hst|]. split; [exact Hk | destruct He; assumption].
Qed.

(* non-vacuity: the op list of the example compaction, crashed right after the rename, allows
   the new file *)
Example crash_example :
  let ops := compact_ops 7 [[E OSet 3 31]; [E OSet 1 11]] in
  crash_image ex_file ops (FS (Some (FGood 7 [E OSet 3 31; E OSet 1 11])) (Some (NFile FBad))).
Proof. simpl. apply CI_new. vm_compute. left; reflexivity. Qed.

(* without the fsync the same op list allows arbitrary content at the .hyd path *)
Example crash_without_fsync_is_unsafe :
  let ops := [CRemoveTmp; CCreateTmp 7; CAppendTmp [E OSet 3 31]; CHeaderTmp; CCloseTmp; CRenameTmpHyd] in
  safe_ops (FGood 7 [E OSet 3 31]) ops = false /\ crash_image ex_file ops (FS (Some FBad) None).
Proof.
  simpl. split; [vm_compute; reflexivity|].
  apply (CI_garbage _ _ (FGood 7 [E OSet 3 31])). vm_compute. left; reflexivity.
Qed.
