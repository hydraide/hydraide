(* Storage/C29Proofs.v — composition for C29: what the writer model leaves on disk, after any
   history, is read by ReadSwampName and by the explorer scan under the creation name. *)
From HV Require Import Base.Prelude Storage.Format
  Storage.Writer Storage.WriterProofs Storage.Reader Storage.ReaderProofs Storage.ReplayProofs
  Storage.SwampName Storage.SwampNameProofs.
Local Open Scope N_scope.

Section C29.
Variable compress : list N -> list N.
Variable decompress : list N -> option (list N).
Variable crc : list N -> N.
Hypothesis decompress_compress : forall x, decompress (compress x) = Some x.

Notation cfits := (Reader.cfits compress).
Notation wf_file := (wf_file (list N) (list N) (list N) nlen nlen cfits).
Notation render := (render compress crc).
Notation read_swamp_name := (read_swamp_name decompress crc).
Notation scan_name := (scan_name decompress crc).

(* A file created by the (repaired) writer under name nm - fresh, or the temp file of a
   compaction - and then subjected to ANY further operations in any number of sessions, with
   any results: it is a V3 file, ReadSwampName returns nm, and so does the explorer's name
   lookup when nm is not empty. *)
Theorem name_roundtrip hm nm (ops : list bop) st' rs f :
  brun compress true init (OOpen nm :: ops) = (st', ROk :: rs) -> s_file st' = Some f ->
  f_ver f = Version3 /\ read_swamp_name (render hm f) = Some nm /\
  (nm <> [] -> scan_name (render hm f) = Some nm).
Proof.
  unfold brun. cbn [Writer.run Writer.step init s_file s_w andb].
  destruct (MaxNameSize <? nlen nm) eqn:En; [destruct (run _ _ _ _ _ _ _ _ _ ops); discriminate|].
  set (st1 := mkS (Some (mkF Version3 nm 0 0 [])) (Some (mkW [] 0 0))).
  destruct (run _ _ _ nlen nlen nlen cfits true st1 ops) as [st2 rs2] eqn:E2. intros [= <- <-] Hf.
  destruct (run_file E2 (Inv_created nm) eq_refl Hf)
    as (Hwf & Hn & Hv & _).
  cbn in Hn, Hv. apply N.ltb_ge, name_fits in En. rewrite <- Hn in En.
  split; [exact Hv|]. split.
  - rewrite <- Hn. now apply read_swamp_name_v3.
  - intro Hne. rewrite scan_name_render by (auto; right; auto).
    unfold stored_name. rewrite Hv, Hn. cbn. now destruct nm.
Qed.

(* Legacy V2 file (name in a metadata entry) appended to by the current writer, any history,
   any results: both lookups keep returning the legacy name. *)
Theorem v2_appends_keep_name hm f0 (ops : list bop) st' rs f nm :
  f_ver f0 = Version2 -> wf_file f0 -> nm <> [] ->
  meta_name (entries_of f0) = nm -> scan_meta (entries_of f0) = nm ->
  brun compress true (mkS (Some f0) None) ops = (st', rs) -> s_file st' = Some f ->
  f_ver f = Version2 /\ read_swamp_name (render hm f) = Some nm /\ scan_name (render hm f) = Some nm.
Proof.
  intros Hv0 Hwf0 Hne Hm Hs Hrun Hf.
  destruct (run_file Hrun (Inv_closed Hwf0) eq_refl Hf) as (Hwf & _ & Hv & extra & Hb).
  assert (He : entries_of f = entries_of f0 ++ concat (map (map to_entry) extra)).
  { unfold entries_of. now rewrite Hb, map_app, concat_app. }
  rewrite Hv0 in Hv. split; [exact Hv|]. split.
  - rewrite read_swamp_name_v2, He, meta_name_app; congruence.
  - rewrite scan_name_render by (auto; left; auto).
    unfold stored_name. rewrite Hv. cbn. rewrite He, scan_meta_app; congruence.
Qed.

End C29.
