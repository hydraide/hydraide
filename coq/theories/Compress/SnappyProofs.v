(* Compress/SnappyProofs.v — facts about the Gallina model of the raw Snappy block decoder:
   it inverts the literal-only encoder on inputs of at most 60 bytes (golang/snappy emits that
   form below 17 bytes), and consequently a flipped literal byte is never detected. *)
From HV Require Import Base.Prelude Compress.Snappy.
Local Open Scope N_scope.

Lemma land3_mul4 : forall k, N.land (4 * k) 3 = 0.
Proof.
  intro k. change 3 with (N.ones 2). rewrite N.land_ones. change (2 ^ 2) with 4.
  rewrite N.mul_comm. apply N.mod_mul. discriminate.
Qed.

Lemma shiftr2_mul4 : forall k, N.shiftr (4 * k) 2 = k.
Proof.
  intro k. rewrite N.shiftr_div_pow2. change (2 ^ 2) with 4.
  rewrite N.mul_comm. apply N.div_mul. discriminate.
Qed.

Lemma enc_lit_cons : forall x : bytes,
  (0 < length x)%nat -> enc_lit x = blen x :: 4 * (blen x - 1) :: x.
Proof. intros [|h t] H; [inversion H | reflexivity]. Qed.

(* One literal element: the length varint is the single byte [blen x], the tag announces
   [blen x] literal bytes, which are the whole rest of the block. *)
Theorem snappy_lit_roundtrip : forall x : bytes,
  (length x <= 60)%nat -> snappy_decode (enc_lit x) = Some x.
Proof.
  intros x Hlen. destruct (Nat.eq_dec (length x) 0) as [E|E].
  { destruct x; [reflexivity | discriminate]. }
  rewrite enc_lit_cons by lia.
  assert (Hn : 1 <= blen x <= 60) by (unfold blen; lia).
  unfold snappy_decode, decoded_len, uvarint. cbn [uvarint_go].
  assert (H128 : (blen x <? 128) = true) by (apply N.ltb_lt; lia). rewrite H128.
  cbn [Nat.eqb andb]. rewrite N.shiftl_0_r, N.lor_0_l.
  assert (H32 : (4294967295 <? blen x) = false) by (apply N.ltb_ge; lia). rewrite H32.
  cbn [length dec_loop].
  rewrite land3_mul4, shiftr2_mul4. cbn [N.eqb].
  assert (H60 : (blen x - 1 <? 60) = true) by (apply N.ltb_lt; lia). rewrite H60.
  replace (blen x - 1 + 1) with (blen x) by lia.
  rewrite N.sub_0_r. rewrite N.ltb_irrefl. cbn [orb].
  assert (Hnat : N.to_nat (blen x) = length x) by (unfold blen; apply Nat2N.id).
  rewrite Hnat, skipn_all, firstn_all. rewrite N.add_0_l, N.eqb_refl.
  rewrite rev_append_rev, app_nil_r, rev_involutive. reflexivity.
Qed.

Lemma set_nth_length : forall i b (l : bytes), length (set_nth i b l) = length l.
Proof. induction i as [|i IH]; intros b [|h t]; simpl; auto. Qed.

Lemma set_nth_changes : forall i b (l : bytes),
  (i < length l)%nat -> nth i l 0 <> b -> set_nth i b l <> l.
Proof.
  induction i as [|i IH]; intros b [|h t] Hi Hne; simpl in *; try lia.
  - intro E. injection E as E. congruence.
  - intro E. injection E as E. revert E. apply IH; [lia|exact Hne].
Qed.

(* Flipping any byte of the literal payload of a valid block gives another valid block: it
   decodes without error to different data.  (Positions 0 and 1 of [enc_lit x] are the length
   varint and the literal tag, payload byte i sits at position 2+i.) *)
Theorem snappy_literal_flip_undetected : forall (x : bytes) i b,
  (length x <= 60)%nat -> (i < length x)%nat -> nth i x 0 <> b ->
  let y := enc_lit x in
  let y' := set_nth (2 + i) b y in
  y' <> y /\ snappy_decode y' = Some (set_nth i b x) /\ set_nth i b x <> x.
Proof.
  intros x i b Hlen Hi Hne y y'.
  assert (Hch : set_nth i b x <> x) by (apply set_nth_changes; assumption).
  (* the damaged block is the encoding of the damaged data *)
  assert (Hy' : y' = enc_lit (set_nth i b x)).
  { unfold y', y. rewrite !enc_lit_cons by (rewrite ?set_nth_length; lia).
    unfold blen. rewrite set_nth_length. reflexivity. }
  split; [|split; [|exact Hch]].
  - rewrite Hy'. unfold y. rewrite !enc_lit_cons by (rewrite ?set_nth_length; lia).
    intro E. injection E as _ _ E. exact (Hch E).
  - rewrite Hy'. apply snappy_lit_roundtrip. rewrite set_nth_length. exact Hlen.
Qed.

Example snappy_flip_example :
  snappy_decode (set_nth 3 120 (enc_lit [97;98;99])) = Some [97;120;99].
Proof. vm_compute; reflexivity. Qed.
