(* compressor.go's plumbing adds nothing to the codecs and takes nothing from them, except that a
   Gzip error is lost under the named-result bug (M5); two toy codecs meet the hypotheses of the C24
   theorems. *)
From HV Require Import Base.Prelude Compress.Snappy Compress.Wrapper.
Local Open Scope N_scope.

Section WrapperFacts.
  Variable enc : alg -> bytes -> res.
  Variable dec : alg -> bytes -> res.

  (* the codec law that C24_roundtrip assumes of the third-party libraries *)
  Definition codec_roundtrip : Prop :=
    forall a x, exists y, enc a x = Ok y /\ dec a y = Ok x.

  Lemma decompress_codec : forall bug t a y,
    alg_of_type t = Some a -> bug = false \/ a <> Gzip \/ dec a y <> Err ->
    decompress dec bug t y = dec a y.
  Proof.
    intros bug t a y Ht H. unfold decompress. rewrite Ht. destruct a; try reflexivity.
    destruct (dec Gzip y); [reflexivity|]. destruct H as [->|[H|H]]; [reflexivity | |]; contradiction.
  Qed.
End WrapperFacts.

Definition toy_enc (_ : alg) (x : bytes) : res := Ok (0 :: x).
Definition toy_dec (_ : alg) (y : bytes) : res :=
  match y with 0 :: x => Ok x | _ => Err end.

Example toy_roundtrip : codec_roundtrip toy_enc toy_dec.
Proof. intros a x. exists (0 :: x). split; reflexivity. Qed.

Example toy_wrapper_roundtrip :
  exists y, compress toy_enc 3%Z [1;2;3] = Ok y /\ decompress toy_dec false 3%Z y = Ok [1;2;3].
Proof. exists [0;1;2;3]. split; vm_compute; reflexivity. Qed.

(* a single valid codeword *)
Definition one_enc (_ : alg) (x : bytes) : res := Ok [7].
Definition one_dec (_ : alg) (y : bytes) : res :=
  match y with [7] => Ok [] | _ => Err end.
Example one_detects : forall a, detects one_enc one_dec a.
Proof.
  intros a x y y' He Hne. injection He as <-. left. unfold one_dec.
  destruct y' as [|b l]; [reflexivity|]. destruct (N.eq_dec b 7) as [->|Hb].
  - destruct l; [contradiction | reflexivity].
  - (* the match on the numeral 7 is a match on the binary digits of b: three levels decide *)
    destruct b as [|[[[p|p|]|[p|p|]|]|[[p|p|]|[p|p|]|]|]]; try reflexivity. contradiction.
Qed.
