(* Compress/Wrapper.v — model of app/core/compressor/compressor.go: the plumbing that the
   wrapper adds around the four third-party codecs, and the C24 case checker.
   The codecs themselves are arguments (M5): [enc a x], [dec a y] return what the library
   returned for that call.  No proofs here. *)
From HV Require Import Base.Prelude Compress.Snappy.
Local Open Scope N_scope.

Inductive alg := Gzip | LZ4 | Snappy | Zstd.

(* compressor.Type is an int; Gzip = iota+1 ... *)
Definition alg_of_type (t : Z) : option alg :=
  match t with
  | 1%Z => Some Gzip | 2%Z => Some LZ4 | 3%Z => Some Snappy | 4%Z => Some Zstd
  | _ => None
  end.

(* result of a Compress/Decompress call, canonicalised: a non-nil error (whatever it is,
   whatever data accompanies it) is [Err]; nil error is [Ok data], nil data = []. *)
Inductive res := Ok (b : bytes) | Err.

Section Wrapper.
  Variable enc : alg -> bytes -> res.
  Variable dec : alg -> bytes -> res.
  (* [named_err_bug = true]: decompressGzip of the pinned commit returned the *named result*
     err (always nil) on both error paths, i.e. (nil, nil). *)
  Variable named_err_bug : bool.

  Definition compress (t : Z) (x : bytes) : res :=
    match alg_of_type t with
    | None => Err                         (* "unknown compressor type" *)
    | Some a => enc a x
    end.

  Definition decompress (t : Z) (y : bytes) : res :=
    match alg_of_type t with
    | None => Err
    | Some Gzip => match dec Gzip y with
                   | Ok o => Ok o
                   | Err => if named_err_bug then Ok [] else Err
                   end
    | Some a => dec a y
    end.
End Wrapper.

(* ---- spec-level notions used by the theorems ---------------------------------------- *)

(* a codec detects damage: any byte string other than the compressed form of x decodes to an
   error or to x itself *)
Definition detects (enc : alg -> bytes -> res) (dec : alg -> bytes -> res) (a : alg) : Prop :=
  forall x y y', enc a x = Ok y -> y' <> y -> dec a y' = Err \/ dec a y' = Ok x.

(* ---- damage ------------------------------------------------------------------------- *)

Inductive damage :=
| DFlip (l : list (N * N))      (* xor the byte at each position with a non-zero mask *)
| DTrunc (n : N)                (* keep the first n bytes, n < length *)
| DAppend (g : bytes).          (* append garbage *)

Fixpoint xor_at (i : nat) (m : N) (l : bytes) : bytes :=
  match l, i with
  | [], _ => []
  | h :: t, O => N.lxor h m :: t
  | h :: t, S i' => h :: xor_at i' m t
  end.

Definition apply_damage (d : damage) (y : bytes) : bytes :=
  match d with
  | DFlip l => fold_left (fun acc pm => xor_at (N.to_nat (fst pm)) (snd pm) acc) l y
  | DTrunc n => firstn (N.to_nat n) y
  | DAppend g => y ++ g
  end.

Definition bytes_eqb : bytes -> bytes -> bool := list_eqb N.eqb.

Definition res_eqb (a b : res) : bool :=
  match a, b with
  | Err, Err => true
  | Ok x, Ok y => bytes_eqb x y
  | _, _ => false
  end.

Definition res_of_opt (o : option bytes) : res :=
  match o with Some b => Ok b | None => Err end.

(* ---- LZ4 frame layout (only to *classify* where damage hit; lz4 frame format 1.6):
        magic(4) FLG BD [content size 8] [dict id 4] HC, then blocks: size word (4, LE; 0 = end
        mark), data (size & 0x7fffffff) [+4 block checksum], finally the content checksum. *)
Fixpoint lz4_words (fuel : nat) (src : bytes) (pos : N) (blkck : bool) : list (N * N) :=
  match fuel with
  | O => []
  | S fuel' =>
    match le_take 4 src with
    | None => []
    | Some (w, rest) =>
      if w =? 0 then [(pos, 4)]
      else let n := N.land w 2147483647 + (if blkck then 4 else 0) in
           (pos, 4) :: lz4_words fuel' (skipn (N.to_nat n) rest) (pos + 4 + n) blkck
    end
  end.

Definition lz4_size_words (y : bytes) : list (N * N) :=
  match y with
  | _ :: _ :: _ :: _ :: flg :: _ =>
    let h := 7 + (if N.testbit flg 3 then 8 else 0) + (if N.testbit flg 0 then 4 else 0) in
    lz4_words (length y) (skipn (N.to_nat h) y) h (N.testbit flg 4)
  | _ => []
  end.

(* ---- the cases the harness emits ------------------------------------------------------ *)

(* observed results, compactly: [RPatch l] is "no error, data = the original input x with
   the byte at each listed position replaced" (lossless; keeps case files small because an
   undetected literal flip changes one byte of a long output); [WSame] = the wrapper returned
   exactly what the codec returned when called directly. *)
Inductive robs := RErr | ROk (b : bytes) | RPatch (l : list (N * N)).
Inductive wobs := WSame | WIs (r : robs).

Definition res_of_robs (x : bytes) (r : robs) : res :=
  match r with
  | RErr => Err
  | ROk b => Ok b
  | RPatch l => Ok (fold_left (fun acc pb => set_nth (N.to_nat (fst pb)) (snd pb) acc) l x)
  end.

Definition res_of_wobs (x : bytes) (lib : res) (w : wobs) : res :=
  match w with WSame => lib | WIs r => res_of_robs x r end.

Record dobs := { dmg : damage; lib_dec : robs; wrap_dec : wobs }.

Inductive case :=
| CRound (t : Z) (x : bytes) (lib_enc : res) (wrap_enc : option res) (lib_dec0 : robs) (wrap_dec0 : wobs)
    (* compress x, decompress the result; lib_* = the codec called directly;
       wrap_enc = None: same as lib_enc *)
| CRoundBig (t : Z) (len : N) (same : bool)
    (* large payload, compared on the Go side only *)
| CDamage (t : Z) (x y : bytes) (ds : list dobs)
    (* y = Compress x (observed in a CRound case); each d: decompress (apply_damage d y) *)
| CGarbage (t : Z) (y : bytes) (lib_dec0 wrap_dec0 : res)
    (* arbitrary bytes *)
| CUnknown (t : Z) (x : bytes) (wrap_enc wrap_dec0 : res).

(* verdict codes (props/C24.json):
   1 wrapper model <> wrapper        2 round trip broken          3 Gallina snappy decoder <> Go's
   4 unknown type accepted           5 harness inconsistency (damage does not change y)
   9 silent difference, unclassified 40 gzip silent difference
   10 snappy: flips confined to literal payload bytes
   11 snappy: flips confined to literal payload and copy-offset bits
   20 lz4 truncation accepted   21 lz4 magic flipped to skippable-frame magic
   22 lz4 size word / end mark flip   30 zstd truncated to the empty string *)

Definition model_dec (t : Z) (lib : res) (y : bytes) : res :=
  decompress (fun _ _ => lib) false t y.

Definition all_in (runs : list (N * N)) (l : list (N * N)) : bool :=
  forallb (fun pm => in_runs runs (fst pm)) l.

(* a flip that only touches literal payload, or only bits of a copy offset *)
Definition snappy_data_flip (r : roles) (pm : N * N) : bool :=
  in_runs (lit_runs r) (fst pm) || in_runs (off_runs r) (fst pm) ||
  (existsb (N.eqb (fst pm)) (copy1_tags r) && (N.land (snd pm) 31 =? 0)).

(* [r]: roles of the positions of the valid y (snappy: literal/offset positions;
   lz4: size-word positions in [lit_runs]) *)
Definition silent_code (t : Z) (r : roles) (d : damage) : N :=
  match alg_of_type t with
  | Some Gzip => 40
  | Some Snappy =>
    match d with
    | DFlip l => if all_in (lit_runs r) l then 10
                 else if forallb (snappy_data_flip r) l then 11 else 9
    | _ => 9
    end
  | Some LZ4 =>
    match d with
    | DTrunc _ => 20
    | DFlip l => if forallb (fun pm => fst pm <? 4) l ||
                    (* byte 1 of the magic becomes 0x2a, bytes 2 and 3 untouched: the frame is a
                       skippable frame whatever else was flipped behind it *)
                    (existsb (fun pm => (fst pm =? 1) && (snd pm =? 8)) l &&
                     forallb (fun pm => negb ((fst pm =? 2) || (fst pm =? 3))) l) then 21
                 else if all_in (lit_runs r) l then 22 else 9
    | _ => 9
    end
  | Some Zstd =>
    match d with
    | DTrunc 0 => 30
    | _ => 9
    end
  | None => 9
  end.

Definition class_roles (t : Z) (y : bytes) : roles :=
  match alg_of_type t with
  | Some Snappy => snappy_roles y
  | Some LZ4 => {| lit_runs := lz4_size_words y; off_runs := []; copy1_tags := [] |}
  | _ => no_roles
  end.

Definition code_if (b : bool) (c : N) : list N := if b then [] else [c].

(* all non-zero codes of one damaged decompression *)
Definition chk_dobs (t : Z) (x y : bytes) (runs : roles) (o : dobs) : list N :=
  let y' := apply_damage (dmg o) y in
  if bytes_eqb y' y then [5] else
  let lib := res_of_robs x (lib_dec o) in
  let wr := res_of_wobs x lib (wrap_dec o) in
  code_if (res_eqb (model_dec t lib y') wr) 1 ++
  match alg_of_type t with
  | Some Snappy => code_if (res_eqb (res_of_opt (snappy_decode y')) lib) 3
  | _ => []
  end ++
  match wr with
  | Err => []
  | Ok x' => if bytes_eqb x' x then [] else [silent_code t runs (dmg o)]
  end.

Definition chk (c : case) : list N :=
  match c with
  | CRound t x le we0 ld0 wd0 =>
    let we := match we0 with None => le | Some r => r end in
    let ld := res_of_robs x ld0 in
    let wd := res_of_wobs x ld wd0 in
    code_if (res_eqb (compress (fun _ _ => le) t x) we) 1 ++
    match we with
    | Ok y => code_if (res_eqb (model_dec t ld y) wd) 1
    | Err => []
    end ++
    match alg_of_type t, we, wd with
    | Some _, Ok _, Ok x' => code_if (bytes_eqb x' x) 2
    | Some _, _, _ => [2]
    | None, _, _ => []
    end ++
    match alg_of_type t, we with
    | Some Snappy, Ok y =>
      code_if (res_eqb (res_of_opt (snappy_decode y)) (Ok x)) 3 ++
      (* golang/snappy emits the literal-only form below 17 bytes (hypothesis of
         C24_no_silent_difference_refuted_for_snappy) *)
      code_if (negb (blen x <? 17) || bytes_eqb y (enc_lit x)) 3
    | _, _ => []
    end
  | CRoundBig t len same => code_if same 2
  | CDamage t x y ds =>
    let runs := class_roles t y in
    flat_map (chk_dobs t x y runs) ds
  | CGarbage t y ld wd =>
    code_if (res_eqb (model_dec t ld y) wd) 1 ++
    match alg_of_type t with
    | Some Snappy => code_if (res_eqb (res_of_opt (snappy_decode y)) ld) 3
    | _ => []
    end
  | CUnknown t x we wd =>
    match alg_of_type t with
    | Some _ => [5]
    | None => match we, wd with Err, Err => [] | _, _ => [4] end
    end
  end.

Fixpoint dedup (l : list N) : list N :=
  match l with
  | [] => []
  | c :: t => if existsb (N.eqb c) t then dedup t else c :: dedup t
  end.

(* one verdict per distinct code of a case (a damage group can show several) *)
Fixpoint check_from (i : N) (cs : list case) : list verdict :=
  match cs with
  | [] => []
  | c :: t => map (fun k => (i, k)) (dedup (chk c)) ++ check_from (N.succ i) t
  end.

Definition check_all (cs : list case) : list verdict := check_from 0 cs.
