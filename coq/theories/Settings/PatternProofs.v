(* Settings/PatternProofs.v — the pattern registry resolves deterministically: the lookup of
   the current code equals the most-specific-match specification for every history of
   registrations and every map iteration order, and survives save + reload.

   The notion is "the most specific registered match" ([most_specific]; that two different
   patterns matching one name never tie in [rank] is C21_specificity_total).  The scan of the
   current code finds it, [pick] evaluates to it, and which patterns are registered depends
   only on the last event about each pattern. *)
From HV Require Import Base.Prelude Settings.Pattern.
From Coq Require Import Permutation.
Local Open Scope N_scope.

Lemma pat_eqb_spec : forall p q, reflect (p = q) (pat_eqb p q).
Proof.
  intros [a b c] [a' b' c']. unfold pat_eqb. simpl.
  destruct (N.eqb_spec a a'), (N.eqb_spec b b'), (N.eqb_spec c c'); constructor; congruence.
Qed.

Lemma pat_eqb_refl : forall p, pat_eqb p p = true.
Proof. intro p. destruct (pat_eqb_spec p p); congruence. Qed.

Lemma assoc_remove : forall r p q,
  assoc (remove_key p r) q = if pat_eqb q p then None else assoc r q.
Proof.
  induction r as [|[k s] t IH]; intros p q; simpl.
  - destruct (pat_eqb q p); reflexivity.
  - destruct (pat_eqb_spec p k) as [<-|Hpk]; simpl; rewrite IH.
    + destruct (pat_eqb q p); reflexivity.
    + destruct (pat_eqb_spec q k), (pat_eqb_spec q p); congruence.
Qed.

Lemma assoc_set : forall r p s q,
  assoc (set_key r p s) q = if pat_eqb q p then Some s else assoc r q.
Proof.
  intros r p s q. unfold set_key. simpl. rewrite assoc_remove.
  destruct (pat_eqb q p); reflexivity.
Qed.

Lemma register_cases : forall quirk r p s,
  register quirk r p s = r \/ register quirk r p s = set_key r p s.
Proof.
  intros quirk r p s. unfold register. destruct (assoc r p); [|auto].
  destruct (_ && _); auto.
Qed.

(* without the quirk a registration is skipped only when it would store what is stored *)
Lemma assoc_register : forall r p s q,
  assoc (register false r p s) q = if pat_eqb q p then Some s else assoc r q.
Proof.
  intros r p s q. unfold register. destruct (assoc r p) as [e|] eqn:Ea; [|apply assoc_set].
  destruct (_ && _) eqn:Ec; [|apply assoc_set]. simpl in Ec.
  apply andb_prop in Ec as [Ec Hf]. apply andb_prop in Ec as [Ec Hw].
  apply andb_prop in Ec as [Ec Hi]. apply andb_prop in Ec as [Hs He].
  apply Z.eqb_eq in Hi, Hw, Hf. apply negb_true_iff in Hs, He.
  assert (e = s) as -> by (destruct e, s; simpl in *; congruence).
  destruct (pat_eqb_spec q p) as [->|]; [exact Ea | reflexivity].
Qed.

Lemma assoc_in : forall r p s, assoc r p = Some s -> In (p, s) r.
Proof.
  induction r as [|[k v] t IH]; intros p s H; simpl in *; [discriminate|].
  destruct (pat_eqb_spec p k) as [->|]; [left; congruence | right; apply IH, H].
Qed.

Definition keys (r : registry) : list pat := map fst r.

Lemma in_assoc : forall r p s, NoDup (keys r) -> In (p, s) r -> assoc r p = Some s.
Proof.
  induction r as [|[k v] t IH]; intros p s Hnd Hin; simpl in *; [contradiction|].
  inversion Hnd as [|? ? Hn Ht]; subst. destruct Hin as [E|Hin].
  - injection E as -> ->. rewrite pat_eqb_refl. reflexivity.
  - destruct (pat_eqb_spec p k) as [->|]; [|apply IH; assumption].
    exfalso. apply Hn. apply (in_map fst _ _ Hin).
Qed.

(* a setting as RegisterPattern stores it: in-memory ones carry no write interval / file size *)
Definition wf_sett (s : sett) : Prop := in_mem s = true -> wint s = 0%Z /\ maxfs s = 0%Z.

Lemma mk_sett_wf : forall m i w f, wf_sett (mk_sett m i w f).
Proof. intros [|] i w f; unfold wf_sett, mk_sett; simpl; intro H; [auto | discriminate]. Qed.

Definition wf_reg (r : registry) : Prop := forall e, In e r -> wf_sett (snd e).

Lemma load_save : forall r, wf_reg r -> load (save r) = r.
Proof.
  intros r H. unfold load, save. rewrite map_map. rewrite <- (map_id r) at 2.
  apply map_ext_in. intros [p [m i w f]] He. specialize (H _ He).
  unfold load_entry, save_entry, wf_sett in *. simpl in *.
  destruct m; [destruct (H eq_refl) as [-> ->]|]; reflexivity.
Qed.

Lemma wf_remove : forall r p, wf_reg r -> wf_reg (remove_key p r).
Proof. intros r p H e He. apply filter_In in He as [He _]. apply H, He. Qed.

Definition wf_events (evs : list event) : Prop := forall p s, In (Reg p s) evs -> wf_sett s.

Lemma wf_run : forall quirk evs, wf_events evs -> wf_reg (run quirk evs).
Proof.
  intros quirk evs H. apply (fold_left_inv wf_reg); [|intros e []].
  intros r [p s|p|] Hin Hr; simpl.
  - destruct (register_cases quirk r p s) as [->| ->]; [exact Hr|].
    intros e [<-|He]; [exact (H p s Hin) | exact (wf_remove r p Hr e He)].
  - apply wf_remove, Hr.
  - rewrite load_save; assumption.
Qed.

Lemma keys_remove : forall r p,
  keys (remove_key p r) = filter (fun k => negb (pat_eqb p k)) (keys r).
Proof.
  induction r as [|[k s] t IH]; intro p; simpl; [reflexivity|].
  destruct (pat_eqb p k); simpl; rewrite IH; reflexivity.
Qed.

Lemma nodup_run : forall quirk evs, NoDup (keys (run quirk evs)).
Proof.
  intros. apply (fold_left_inv (fun r => NoDup (keys r))); [|constructor].
  intros r [p s|p|] _ H; simpl.
  - destruct (register_cases quirk r p s) as [->| ->]; [exact H|].
    unfold set_key. simpl. rewrite keys_remove. constructor; [|apply NoDup_filter, H].
    intro Hin. apply filter_In in Hin as [_ Hin]. rewrite pat_eqb_refl in Hin. discriminate.
  - rewrite keys_remove. apply NoDup_filter, H.
  - unfold keys, load, save. rewrite !map_map. exact H.
Qed.

Lemma assoc_run : forall evs p, wf_events evs -> assoc (run false evs) p = last_reg evs p.
Proof.
  induction evs as [|e evs IH] using rev_ind; intros p H; [reflexivity|].
  assert (Hevs : wf_events evs) by (intros q s Hin; apply (H q s), in_or_app; auto).
  unfold run, last_reg in *. rewrite !fold_left_app. simpl. rewrite <- IH by exact Hevs.
  destruct e as [q s|q|]; simpl.
  - apply assoc_register.
  - apply assoc_remove.
  - rewrite load_save; [reflexivity | apply wf_run, Hevs].
Qed.

Lemma in_force : forall evs order p s,
  wf_events evs -> Permutation (run false evs) order ->
  In (p, s) order <-> last_reg evs p = Some s.
Proof.
  intros evs order p s Hwf Hp. rewrite <- assoc_run by exact Hwf. split; intro H.
  - apply in_assoc; [apply nodup_run|]. exact (Permutation_in _ (Permutation_sym Hp) H).
  - exact (Permutation_in _ Hp (assoc_in _ _ _ H)).
Qed.

Lemma matches_cand : forall n p, matches n p = true -> p = cand n (rank p).
Proof.
  intros n [a b c] H. unfold matches, cand, rank in *. simpl in *.
  apply andb_true_iff in H as [H H3]. apply andb_true_iff in H as [H1 H2].
  apply N.eqb_eq in H1. subst a.
  destruct (N.eqb_spec b 0) as [->|Hb]; destruct (N.eqb_spec c 0) as [->|Hc]; simpl in *;
    try (apply N.eqb_eq in H2); try (apply N.eqb_eq in H3); subst; reflexivity.
Qed.

Lemma cand_matches : forall n k, matches n (cand n k) = true.
Proof.
  intros n k. unfold matches, cand. simpl. rewrite N.eqb_refl. simpl.
  destruct (N.testbit k 1), (N.testbit k 0); simpl; rewrite ?N.eqb_refl, ?orb_true_r; reflexivity.
Qed.

(* [b] is the most specific match of n among the registrations [reg] (None: nothing matches) *)
Definition most_specific (reg : pat -> sett -> Prop) (n : pat) (b : option (pat * sett)) : Prop :=
  match b with
  | None => forall q s, reg q s -> matches n q = false
  | Some (p, s) => reg p s /\ matches n p = true /\
                   forall q s', reg q s' -> matches n q = true -> rank q <= rank p
  end.

(* [reg] is any description of the entries of r: the callers describe them by [last_reg] *)
Lemma scan_most_specific : forall n r (reg : pat -> sett -> Prop),
  (forall p s, reg p s <-> In (p, s) r) ->
  most_specific reg n (fold_left (best_step n) r None).
Proof.
  intros n r. induction r as [|[k v] r IH] using rev_ind; intros reg Hreg.
  { intros q s Hq. apply Hreg in Hq. destruct Hq. }
  assert (Hin : forall q s, reg q s <-> In (q, s) r \/ (k, v) = (q, s)).
  { intros q s. rewrite Hreg, in_app_iff. simpl. tauto. }
  specialize (IH (fun p s => In (p, s) r) (fun p s => iff_refl _)).
  (* an entry that dominates the earlier entries and the new one is the most specific of all *)
  assert (Best : forall p' s', reg p' s' -> matches n p' = true ->
            (forall q s, In (q, s) r -> matches n q = true -> rank q <= rank p') ->
            (matches n k = true -> rank k <= rank p') ->
            most_specific reg n (Some (p', s'))).
  { intros p' s' Hp' Hm' Hold Hnew. split; [exact Hp'|]. split; [exact Hm'|].
    intros q s Hq Hmq. apply Hin in Hq as [Hq|Hq]; [exact (Hold q s Hq Hmq)|].
    injection Hq as <- _. exact (Hnew Hmq). }
  rewrite fold_left_app. simpl. unfold best_step at 1. simpl.
  destruct (matches n k) eqn:Em; destruct (fold_left (best_step n) r None) as [[p s]|]; simpl in *.
  - destruct IH as (Hp & Hm & Hmax).
    destruct (N.ltb_spec (rank p) (rank k)) as [Hr|Hr]; simpl.
    + apply Best; [apply Hin; auto | exact Em | | lia].
      intros q s' Hq Hmq. specialize (Hmax q s' Hq Hmq). lia.
    + apply Best; [apply Hin; auto | exact Hm | exact Hmax | intros _; exact Hr].
  - apply Best; [apply Hin; auto | exact Em | | lia].
    intros q s' Hq Hmq. rewrite (IH q s' Hq) in Hmq. discriminate.
  - destruct IH as (Hp & Hm & Hmax).
    apply Best; [apply Hin; auto | exact Hm | exact Hmax | discriminate].
  - intros q s Hq. apply Hin in Hq as [Hq|Hq]; [exact (IH q s Hq) | injection Hq as <- _; exact Em].
Qed.

Lemma pick_most_specific : forall f n b,
  most_specific (fun p s => f p = Some s) n b ->
  pick f n = match b with Some e => snd e | None => default_sett end.
Proof.
  intros f n [[p s]|]; simpl.
  - intros (Hp & Hm & Hmax).
    assert (Hlvl : at_level f n (rank p) = Some s).
    { unfold at_level. rewrite <- (matches_cand n p Hm), N.eqb_refl. exact Hp. }
    assert (Hhigher : forall k, rank p < k -> at_level f n k = None).
    { intros k Hk. unfold at_level. destruct (N.eqb_spec (rank (cand n k)) k) as [E|]; [|reflexivity].
      destruct (f (cand n k)) as [s'|] eqn:Ef; [|reflexivity].
      specialize (Hmax _ _ Ef (cand_matches n k)). lia. }
    assert (Hcases : rank p = 3 \/ rank p = 2 \/ rank p = 1 \/ rank p = 0).
    { unfold rank. destruct (pr p =? 0), (pw p =? 0); auto. }
    unfold pick.
    destruct Hcases as [E|[E|[E|E]]]; rewrite E in *.
    + rewrite Hlvl. reflexivity.
    + rewrite (Hhigher 3), Hlvl by lia. reflexivity.
    + rewrite (Hhigher 3), (Hhigher 2), Hlvl by lia. reflexivity.
    + rewrite (Hhigher 3), (Hhigher 2), (Hhigher 1), Hlvl by lia. reflexivity.
  - intro Hn. assert (Hnone : forall k, at_level f n k = None).
    { intro k. unfold at_level. destruct (f (cand n k)) as [s|] eqn:Ef.
      - apply Hn in Ef. rewrite cand_matches in Ef. discriminate.
      - destruct (_ =? _); reflexivity. }
    unfold pick. rewrite !Hnone. reflexivity.
Qed.

Lemma pick_ext : forall f g n, (forall p, f p = g p) -> pick f n = pick g n.
Proof. intros f g n H. unfold pick, at_level. rewrite !H. reflexivity. Qed.

Lemma scan_in_force : forall evs order n,
  wf_events evs -> Permutation (run false evs) order ->
  most_specific (fun p s => last_reg evs p = Some s) n (fold_left (best_step n) order None).
Proof.
  intros evs order n Hwf Hp. apply scan_most_specific.
  intros p s. symmetry. apply in_force; assumption.
Qed.

Theorem restart_stable : forall evs n,
  wf_events evs ->
  lookup_best (load (save (run false evs))) n = lookup_best (run false evs) n.
Proof. intros evs n H. rewrite load_save; [reflexivity | apply wf_run, H]. Qed.

Definition is_restart (e : event) : bool := match e with Restart => true | _ => false end.

Lemma last_reg_ignores_restarts : forall evs p,
  last_reg (filter (fun e => negb (is_restart e)) evs) p = last_reg evs p.
Proof.
  intros evs p. unfold last_reg. generalize (@None sett).
  induction evs as [|e t IH]; intro st; simpl; [reflexivity|].
  destruct e; simpl; apply IH.
Qed.

Lemma wf_events_filter : forall f evs, wf_events evs -> wf_events (filter f evs).
Proof. intros f evs H p s Hin. apply filter_In in Hin as [Hin _]. exact (H p s Hin). Qed.

(* with at most one matching pattern the first-match lookup was already right *)
Lemma first_match_partial : forall r n,
  (forall e1 e2, In e1 r -> In e2 r -> matches n (fst e1) = true -> matches n (fst e2) = true -> e1 = e2) ->
  lookup_first r n = lookup_best r n.
Proof.
  intros r n Huniq. unfold lookup_first, lookup_best.
  pose proof (scan_most_specific n r _ (fun p s => iff_refl (In (p, s) r))) as H.
  destruct (find (fun e => matches n (fst e)) r) as [[k v]|] eqn:Ef.
  - apply find_some in Ef as [Hin Hm].
    destruct (fold_left (best_step n) r None) as [[p s]|]; simpl in *.
    + destruct H as (Hp & Hmp & _). exact (f_equal snd (Huniq _ _ Hin Hp Hm Hmp)).
    + rewrite (H k v Hin) in Hm. discriminate.
  - destruct (fold_left (best_step n) r None) as [[p s]|]; simpl in *; [|reflexivity].
    destruct H as (Hp & Hmp & _). pose proof (find_none _ _ Ef _ Hp) as Hn.
    simpl in Hn. congruence.
Qed.

Definition pA : pat := {| ps := 1; pr := 0; pw := 0 |}.     (* a/*/*  in-memory *)
Definition pB : pat := {| ps := 1; pr := 2; pw := 0 |}.     (* a/b/*  persistent *)
Definition nABC : pat := {| ps := 1; pr := 2; pw := 3 |}.   (* a/b/c *)
Definition sMem : sett := mk_sett true 10 0 0.
Definition sDisk : sett := mk_sett false 10 1 65536.

(* a/*/* in-memory and a/b/* persistent, in both iteration orders: the more specific pattern *)
Example best_match_example :
  lookup_best [(pA, sMem); (pB, sDisk)] nABC = sDisk /\
  lookup_best [(pB, sDisk); (pA, sMem)] nABC = sDisk.
Proof. split; vm_compute; reflexivity. Qed.
