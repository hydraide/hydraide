(* Invariants of the business-lock model for every trace, any number of callers, with and
   without pruning; what C14 and C28 (no residue) rest on.

   [Inv] has ten clauses, seven of them about every entry list on the heap.  Since every object
   but the key's current one is empty, they say that the current list is well formed: [qok]
   states that for one list over a thread list, a counter and a grant log.  What is carried
   along a run is [LiveQ] (the current object is [qok], the others are dead), so that each
   transition of [step] ([trans]) is one list lemma plus the bookkeeping of [cur]; [Inv] follows
   from it. *)
From HV Require Import Base.Prelude Conc.BLock.
From Coq Require Import Sorted.

Lemma upd_nth_cases {A} : forall (l : list A) i x j,
  nth_error (upd i x l) j = if Nat.eqb j i then (match nth_error l i with Some _ => Some x | None => None end)
                            else nth_error l j.
Proof.
  induction l as [|z t IH]; intros [|i] x [|j]; simpl; auto.
  destruct (Nat.eqb j i); reflexivity.
Qed.

Lemma upd_nth_same {A} (l : list A) i x y : nth_error l i = Some y -> nth_error (upd i x l) i = Some x.
Proof. intros E. rewrite upd_nth_cases, Nat.eqb_refl, E. reflexivity. Qed.

Lemma upd_nth_other {A} (l : list A) i j x : i <> j -> nth_error (upd i x l) j = nth_error l j.
Proof. intros N. rewrite upd_nth_cases. destruct (Nat.eqb_spec j i); congruence. Qed.

Lemma upd_nth_inv {A} (l : list A) i x y j z :
  nth_error l i = Some y -> nth_error (upd i x l) j = Some z ->
  (j = i /\ z = x) \/ (j <> i /\ nth_error l j = Some z).
Proof.
  intros E F. rewrite upd_nth_cases, E in F. destruct (Nat.eqb_spec j i); [left|right]; split; congruence.
Qed.

Lemma upd_id {A} : forall (l : list A) i x, nth_error l i = Some x -> upd i x l = l.
Proof. induction l as [|z t IH]; intros [|i] x E; simpl in *; try discriminate; try congruence.
  f_equal. eauto. Qed.

Lemma upd_Forall {A} (P : A -> Prop) : forall l i y, Forall P l -> P y -> Forall P (upd i y l).
Proof.
  induction l as [|z t IH]; intros [|i] y F Py; simpl; auto; inversion F; subst; constructor; auto.
Qed.

Lemma sorted_app_last {A} (R : A -> A -> Prop) l n :
  StronglySorted R l -> Forall (fun x => R x n) l -> StronglySorted R (l ++ [n]).
Proof.
  induction l as [|a t IH]; simpl; intros S F; [repeat constructor|].
  inversion S as [|? ? St Fa]; subst. inversion F as [|? ? Ha Ft]; subst. constructor; [auto|].
  apply Forall_app. split; [assumption|]. constructor; [assumption|constructor].
Qed.

Lemma Forall_remove {A} (P : A -> Prop) l1 x l2 : Forall P (l1 ++ x :: l2) -> Forall P (l1 ++ l2).
Proof. rewrite !Forall_app. intros [F1 F2]. inversion F2; auto. Qed.

Lemma sorted_remove {A} (R : A -> A -> Prop) x l2 : forall l1,
  StronglySorted R (l1 ++ x :: l2) -> StronglySorted R (l1 ++ l2).
Proof.
  induction l1 as [|a t IH]; simpl; intros S; inversion S as [|? ? St F]; subst; [assumption|].
  constructor; [auto|]. exact (Forall_remove _ _ _ _ F).
Qed.

(* what [q_remove] leaves of the entries when the id is queued *)
Definition removed (id : nat) (l : list entry) : list entry :=
  if is_head id l then wake_head (rm_first id l) else rm_first id l.

Lemma has_tok_split id : forall l, has_tok id l = true ->
  exists l1 e l2, l = l1 ++ e :: l2 /\ e_tok e = id /\ rm_first id l = l1 ++ l2 /\ is_head id l = is_nil l1.
Proof.
  induction l as [|a t IH]; simpl; [discriminate|]. destruct (Nat.eqb_spec (e_tok a) id) as [E|N]; simpl; intros Hh.
  - exists [], a, t. auto.
  - destruct (IH Hh) as (l1 & e & l2 & -> & Ee & Er & _). exists (a :: l1), e, l2. rewrite Er. auto.
Qed.

Lemma wake_head_tok l : map e_tok (wake_head l) = map e_tok l.
Proof. destruct l; reflexivity. Qed.

Lemma removed_toks id l : has_tok id l = true ->
  exists t1 t2, map e_tok l = t1 ++ id :: t2 /\ map e_tok (removed id l) = t1 ++ t2.
Proof.
  intros Hh. destruct (has_tok_split id l Hh) as (l1 & e & l2 & -> & <- & Er & Eh).
  exists (map e_tok l1), (map e_tok l2). rewrite map_app. split; [reflexivity|].
  unfold removed. rewrite Er, Eh. destruct l1; simpl; [apply wake_head_tok|rewrite map_app; reflexivity].
Qed.

Definition ready_ok (l : list entry) : Prop :=
  match l with [] => True | e :: t => e_ready e = true /\ Forall (fun x => e_ready x = false) t end.

Lemma ready_ok_head l e : ready_ok l -> In e l -> e_ready e = true -> exists t, l = e :: t.
Proof.
  destruct l as [|a t]; simpl; [tauto|]. intros [Ra Ft] [<-|Hin] Re; [eauto|].
  rewrite Forall_forall in Ft. rewrite (Ft _ Hin) in Re. discriminate.
Qed.

Lemma find_entry_In id : forall l e, find_entry id l = Some e -> In e l /\ e_tok e = id.
Proof.
  induction l as [|a t IH]; simpl; intros e F; [discriminate|].
  destruct (Nat.eqb_spec (e_tok a) id) as [E|N].
  - inversion F; subst. auto.
  - destruct (IH _ F). auto.
Qed.

Lemma find_entry_some id : forall l e, In e l -> e_tok e = id -> exists e', find_entry id l = Some e'.
Proof.
  induction l as [|a t IH]; simpl; intros e Hin E; [tauto|].
  destruct (Nat.eqb_spec (e_tok a) id); [eauto|]. destruct Hin as [<-|Hin]; [congruence|eauto].
Qed.

Lemma has_tok_In id l : has_tok id l = true <-> exists e, In e l /\ e_tok e = id.
Proof.
  unfold has_tok. rewrite existsb_exists. setoid_rewrite Nat.eqb_eq. reflexivity.
Qed.

(* An entry of object [p], given the thread list, the enqueue counter and the grant log: its
   caller waits in the select on [p] and was enqueued after every grant so far, or it holds and
   its ready flag is up. *)
Definition ent_ok (th : list pc) (n : nat) (gl : list nat) (p : nat) (e : entry) : Prop :=
  e_seq e < n /\
  ((nth_error th (e_tok e) = Some (L2 p) /\ forall g, In g gl -> g < e_seq e) \/
   (nth_error th (e_tok e) = Some (H p) /\ e_ready e = true)).

Record qok (th : list pc) (n : nat) (gl : list nat) (p : nat) (l : list entry) : Prop := mkQok {
  o_rdy : ready_ok l;
  o_nodup : NoDup (map e_tok l);
  o_seq : StronglySorted lt (map e_seq l);
  o_ent : Forall (ent_ok th n gl p) l }.

Lemma qok_nil th n gl p : qok th n gl p [].
Proof. repeat constructor. Qed.

Lemma ent_ok_frame th th' n n' gl p e : ent_ok th n gl p e ->
  nth_error th' (e_tok e) = nth_error th (e_tok e) -> n <= n' -> ent_ok th' n' gl p e.
Proof. intros [S D] F L. split; [lia|]. rewrite F. exact D. Qed.

Lemma qok_removed th n gl p id l : qok th n gl p l -> has_tok id l = true -> qok th n gl p (removed id l).
Proof.
  intros [R N S F] Hh. destruct (has_tok_split id l Hh) as (l1 & e & l2 & -> & _ & Er & Eh).
  unfold removed. rewrite Er, Eh. rewrite map_app in N, S.
  apply NoDup_remove_1 in N. apply sorted_remove in S. apply Forall_remove in F. rewrite <- map_app in N, S.
  destruct l1 as [|a l1]; simpl in *.
  - (* the head goes and the next entry is woken: it keeps token and sequence number and its flag is now up,
       so either disjunct of its [ent_ok] carries over *)
    destruct l2 as [|b l2]; [apply qok_nil|]. destruct R as [_ R]. inversion R; subst.
    inversion F as [|? ? [Sq D] F']; subst.
    constructor; simpl; auto. constructor; [|assumption]. split; [assumption|]. destruct D as [D|[T _]]; auto.
  - destruct R as [Ra R]. constructor; auto. split; [assumption|]. exact (Forall_remove _ _ _ _ R).
Qed.

Lemma qok_enqueue th n gl p l t c : qok th n gl p l -> nth_error th t = Some (L1 c) ->
  Forall (fun g => g < n) gl ->
  qok (upd t (L2 p) th) (S n) gl p (l ++ [{| e_tok := t; e_seq := n; e_ready := is_nil l |}]).
Proof.
  intros [R N S F] Et G. rewrite Forall_forall in F, G.
  assert (A : forall e, In e l -> e_tok e <> t).
  { intros e Hin Z. destruct (F e Hin) as [_ [[T _]|[T _]]]; congruence. }
  constructor.
  - destruct l as [|a l]; simpl in *; [split; [reflexivity|constructor]|]. destruct R as [Ra Fl].
    split; [assumption|]. apply Forall_app. split; [assumption|]. repeat constructor.
  - rewrite map_app. apply (NoDup_Add (Add_app _ _ [])). rewrite app_nil_r. split; [assumption|].
    intros Hin. apply in_map_iff in Hin. destruct Hin as [e [Z Hin]]. exact (A e Hin Z).
  - rewrite map_app. apply sorted_app_last; [assumption|].
    apply Forall_map, Forall_forall. intros e Hin. apply (F e Hin).
  - apply Forall_app. split.
    + apply Forall_forall. intros e Hin. apply (ent_ok_frame th _ n); [auto| |lia].
      apply upd_nth_other. intros Z. apply (A e Hin). auto.
    + constructor; [|constructor]. split; simpl; [lia|]. left. split; [eapply upd_nth_same; eauto|exact G].
Qed.

(* the grant: the ready entry of [t] is the head, so all others were enqueued after it *)
Lemma qok_grant th n gl p l t e : qok th n gl p l -> nth_error th t = Some (L2 p) ->
  find_entry t l = Some e -> e_ready e = true -> qok (upd t (H p) th) n (e_seq e :: gl) p l.
Proof.
  intros [R N S F] Et Ef Er. destruct (find_entry_In _ _ _ Ef) as [Hin <-].
  destruct (ready_ok_head _ _ R Hin Er) as [tl ->]. constructor; try assumption.
  simpl in N, S. inversion N as [|? ? Na _]; inversion S as [|? ? _ Fs]; inversion F as [|? ? [Sq _] Ft]; subst.
  constructor.
  - split; [assumption|]. right. split; [eapply upd_nth_same; eauto|assumption].
  - rewrite Forall_forall in *. intros e0 Hin0. destruct (Ft e0 Hin0) as [Sq0 D]. split; [assumption|].
    rewrite upd_nth_other by (intros Z; apply Na; rewrite Z; apply in_map; assumption).
    destruct D as [[T W]|D]; [left|right; assumption]. split; [assumption|].
    intros g [<-|Hg]; [|auto]. apply Fs. apply in_map. assumption.
Qed.

Definition thr_ok (s : st) (p : nat) (e : entry) : Prop :=
  nth_error (thr s) (e_tok e) = Some (L2 p) \/ nth_error (thr s) (e_tok e) = Some (H p).

(* [i_cur], [i_old]: the map entry points at the one live object; [i_glog]: the grant log; the
   other clauses hold of each object's entries and are [qok] unfolded (see [liveq_inv]) *)
Record Inv (s : st) : Prop := mkInv {
  i_cur : forall p, cur s = Some p -> exists q, nth_error (heap s) p = Some q /\ retired q = false;
  i_old : forall p q, nth_error (heap s) p = Some q -> cur s <> Some p -> ents q = [] /\ retired q = true;
  i_rdy : forall p q, nth_error (heap s) p = Some q -> ready_ok (ents q);
  i_thr : forall p q e, nth_error (heap s) p = Some q -> In e (ents q) -> thr_ok s p e;
  i_nodup : forall p q, nth_error (heap s) p = Some q -> NoDup (map e_tok (ents q));
  i_hrdy : forall p q e, nth_error (heap s) p = Some q -> In e (ents q) ->
           is_H (nth_error (thr s) (e_tok e)) = true -> e_ready e = true;
  i_seq : forall p q, nth_error (heap s) p = Some q -> StronglySorted lt (map e_seq (ents q));
  i_seqb : forall p q e, nth_error (heap s) p = Some q -> In e (ents q) -> e_seq e < nenq s;
  i_glog : StronglySorted gt (glog s) /\ Forall (fun g => g < nenq s) (glog s);
  i_wait : forall p q e g, nth_error (heap s) p = Some q -> In e (ents q) ->
           is_H (nth_error (thr s) (e_tok e)) = false -> In g (glog s) -> g < e_seq e }.

Record LiveQ (s : st) : Prop := mkLiveQ {
  l_old : forall p q, nth_error (heap s) p = Some q -> cur s = Some p \/ (ents q = [] /\ retired q = true);
  l_cur : forall p, cur s = Some p -> exists q, nth_error (heap s) p = Some q /\ retired q = false /\
                                                  qok (thr s) (nenq s) (glog s) p (ents q);
  l_glog : StronglySorted gt (glog s) /\ Forall (fun g => g < nenq s) (glog s) }.

Lemma liveq_obj s p q : LiveQ s -> nth_error (heap s) p = Some q ->
  (cur s = Some p /\ retired q = false /\ qok (thr s) (nenq s) (glog s) p (ents q)) \/
  (ents q = [] /\ retired q = true).
Proof.
  intros L E. destruct (l_old s L p q E) as [C|D]; [left|right; exact D].
  destruct (l_cur s L p C) as (q' & E' & K). rewrite E in E'. inversion E'; subst q'. auto.
Qed.

Lemma queued_is_cur s p q e : LiveQ s -> nth_error (heap s) p = Some q -> In e (ents q) -> cur s = Some p.
Proof. intros L E Hin. destruct (l_old s L p q E) as [C|[Z _]]; [exact C|rewrite Z in Hin; destruct Hin]. Qed.

Lemma liveq_inv s : LiveQ s -> Inv s.
Proof.
  intros L.
  assert (Q : forall p q, nth_error (heap s) p = Some q -> qok (thr s) (nenq s) (glog s) p (ents q)).
  { intros p q E. destruct (liveq_obj s p q L E) as [(_ & _ & K)|[-> _]]; [exact K|apply qok_nil]. }
  assert (F : forall p q e, nth_error (heap s) p = Some q -> In e (ents q) ->
              ent_ok (thr s) (nenq s) (glog s) p e).
  { intros p q e E. apply Forall_forall. apply (Q p q E). }
  constructor.
  - intros p Ec. destruct (l_cur s L p Ec) as (q & E & R & _). eauto.
  - intros p q E N. destruct (l_old s L p q E); [contradiction|assumption].
  - intros p q E. apply (Q p q E).
  - intros p q e E Hin. destruct (F p q e E Hin) as [_ [[T _]|[T _]]]; [left|right]; exact T.
  - intros p q E. apply (Q p q E).
  - intros p q e E Hin Hh. destruct (F p q e E Hin) as [_ [[T _]|[_ R]]]; [rewrite T in Hh; discriminate|exact R].
  - intros p q E. apply (Q p q E).
  - intros p q e E Hin. apply (F p q e E Hin).
  - apply (l_glog s L).
  - intros p q e g E Hin Hh. destruct (F p q e E Hin) as [_ [[_ W]|[T _]]]; [apply W|rewrite T in Hh; discriminate].
Qed.

Lemma liveq_init n : LiveQ (init n).
Proof.
  constructor; simpl.
  - intros [|p] q E; discriminate.
  - intros p E; discriminate.
  - split; constructor.
Qed.

Lemma inv_init n : Inv (init n).
Proof. apply liveq_inv, liveq_init. Qed.

(* the state after remove(key, heap[p], id), [q] being object [p] *)
Definition after_remove (prune : bool) (s : st) (p id : nat) (q : qobj) : st :=
  if has_tok id (ents q) then
    {| heap := upd p {| ents := removed id (ents q);
                        retired := retired q || (prune && is_nil (removed id (ents q))) |} (heap s);
       cur := if prune && is_nil (removed id (ents q)) && opt_eqb (cur s) p then None else cur s;
       thr := thr s; nenq := nenq s; glog := glog s |}
  else s.

Lemma do_remove_eq prune s p id q : nth_error (heap s) p = Some q ->
  do_remove prune s p id = Some (after_remove prune s p id q, has_tok id (ents q)).
Proof.
  intros E. unfold do_remove, q_remove, after_remove. rewrite E. destruct (has_tok id (ents q)); [reflexivity|].
  simpl. rewrite (upd_id _ _ _ E). destruct s; reflexivity.
Qed.

Lemma do_remove_miss prune s p q id : nth_error (heap s) p = Some q -> has_tok id (ents q) = false ->
  do_remove prune s p id = Some (s, false).
Proof. intros E Hh. rewrite (do_remove_eq _ _ _ _ _ E). unfold after_remove. rewrite Hh. reflexivity. Qed.

Lemma after_remove_thr prune s p id q : thr (after_remove prune s p id q) = thr s.
Proof. unfold after_remove. destruct (has_tok id (ents q)); reflexivity. Qed.

Definition new_queue (s : st) : st :=
  {| heap := heap s ++ [{| ents := []; retired := false |}]; cur := Some (length (heap s));
     thr := thr s; nenq := nenq s; glog := glog s |}.
Definition enqueue (s : st) (t p : nat) (q : qobj) : st :=
  {| heap := upd p {| ents := ents q ++ [{| e_tok := t; e_seq := nenq s; e_ready := is_nil (ents q) |}];
                      retired := false |} (heap s);
     cur := cur s; thr := upd t (L2 p) (thr s); nenq := S (nenq s); glog := glog s |}.
Definition grant (s : st) (t p : nat) (e : entry) : st :=
  {| heap := heap s; cur := cur s; thr := upd t (H p) (thr s); nenq := nenq s; glog := e_seq e :: glog s |}.

(* [step] read as a relation: one constructor per branch, carrying what the branch has tested *)
Inductive trans (prune : bool) (s : st) : action -> st -> Prop :=
| TGet t p (Et : nth_error (thr s) t = Some L0) (Ec : cur s = Some p) :
    trans prune s (AStep t) (set_thr s t (L1 p))
| TNew t (Et : nth_error (thr s) t = Some L0) (Ec : cur s = None) :
    trans prune s (AStep t) (set_thr (new_queue s) t (L1 (length (heap s))))
| TRetry t p q (Et : nth_error (thr s) t = Some (L1 p)) (Eq : nth_error (heap s) p = Some q)
    (Er : retired q = true) : trans prune s (AStep t) (set_thr s t L0)
| TEnq t p q (Et : nth_error (thr s) t = Some (L1 p)) (Eq : nth_error (heap s) p = Some q)
    (Er : retired q = false) : trans prune s (AStep t) (enqueue s t p q)
| TGrant t p q e (Et : nth_error (thr s) t = Some (L2 p)) (Eq : nth_error (heap s) p = Some q)
    (Ef : find_entry t (ents q) = Some e) (Er : e_ready e = true) : trans prune s (AStep t) (grant s t p e)
| TCancel t p q (Et : nth_error (thr s) t = Some (L2 p)) (Eq : nth_error (heap s) p = Some q) :
    trans prune s (ACancel t) (set_thr (after_remove prune s p t q) t LCancelled)
| TRemove p id q (Eq : nth_error (heap s) p = Some q) : trans prune s (ARemove p id) (after_remove prune s p id q).

Lemma step_trans prune s a s' : step prune s a = Some s' -> trans prune s a s'.
Proof.
  intros E. destruct a as [t|t|p id]; simpl in E.
  - destruct (nth_error (thr s) t) as [[|p|p|p|]|] eqn:Et; try discriminate.
    + destruct (cur s) as [p|] eqn:Ec; inversion E; subst; [eapply TGet|apply TNew]; eauto.
    + destruct (nth_error (heap s) p) as [q|] eqn:Eq; [|discriminate].
      destruct (retired q) eqn:Er; inversion E; subst; [eapply TRetry|eapply TEnq]; eauto.
    + destruct (nth_error (heap s) p) as [q|] eqn:Eq; [|discriminate].
      destruct (find_entry t (ents q)) as [e|] eqn:Ef; [|discriminate].
      destruct (e_ready e) eqn:Er; [|discriminate]. inversion E; subst. eapply TGrant; eauto.
  - destruct (nth_error (thr s) t) as [[|p|p|p|]|] eqn:Et; try discriminate.
    destruct (nth_error (heap s) p) as [q|] eqn:Eq; [|unfold do_remove in E; rewrite Eq in E; discriminate].
    rewrite (do_remove_eq _ _ _ _ _ Eq) in E. inversion E; subst. eapply TCancel; eauto.
  - destruct (nth_error (heap s) p) as [q|] eqn:Eq; [|unfold do_remove in E; rewrite Eq in E; discriminate].
    rewrite (do_remove_eq _ _ _ _ _ Eq) in E. inversion E; subst. eapply TRemove; eauto.
Qed.

Lemma liveq_set_thr_absent s t c : LiveQ s ->
  (forall p q e, nth_error (heap s) p = Some q -> In e (ents q) -> e_tok e <> t) ->
  LiveQ (set_thr s t c).
Proof.
  intros L A. constructor; simpl; [apply (l_old s L)| |apply (l_glog s L)].
  intros p Ec. destruct (l_cur s L p Ec) as (q & E & R & [Rd N S F]). exists q. split; [assumption|]. split; [assumption|].
  constructor; try assumption.
  rewrite Forall_forall in *. intros e Hin. apply (ent_ok_frame (thr s) _ (nenq s)); [auto| |lia].
  apply upd_nth_other. intros Z. eapply A; eauto.
Qed.

Lemma liveq_set_thr s t c c' : LiveQ s -> nth_error (thr s) t = Some c ->
  (forall p, c <> L2 p /\ c <> H p) -> LiveQ (set_thr s t c').
Proof.
  intros L Et N. apply liveq_set_thr_absent; [assumption|]. intros p q e E Hin Z.
  destruct (i_thr s (liveq_inv s L) p q e E Hin) as [T|T]; rewrite Z, Et in T; destruct (N p); congruence.
Qed.

Lemma liveq_new_queue s : LiveQ s -> cur s = None -> LiveQ (new_queue s).
Proof.
  intros L Ec. constructor; simpl; [| |apply (l_glog s L)].
  - intros p q E. destruct (Nat.lt_ge_cases p (length (heap s))) as [Lt|Ge].
    + rewrite nth_error_app1 in E by assumption. destruct (l_old s L p q E); [congruence|auto].
    + assert (Lt : p < length (heap s ++ [{| ents := []; retired := false |}])) by (apply nth_error_Some; congruence).
      rewrite app_length in Lt. simpl in Lt. left. f_equal. lia.
  - intros p Ep. inversion Ep; subst p. eexists.
    split; [rewrite nth_error_app2, Nat.sub_diag by lia; reflexivity|]. split; [reflexivity|apply qok_nil].
Qed.

Lemma liveq_enqueue s t p q : LiveQ s -> nth_error (thr s) t = Some (L1 p) ->
  nth_error (heap s) p = Some q -> retired q = false -> LiveQ (enqueue s t p q).
Proof.
  intros L Et Eq Er. destruct (liveq_obj s p q L Eq) as [(Hc & _ & K)|[_ R]]; [|congruence].
  destruct (l_glog s L) as [G1 G2]. constructor; simpl.
  - intros p0 q0 E0. destruct (upd_nth_inv _ _ _ _ _ _ Eq E0) as [[-> _]|[_ E1]]; [left; exact Hc|exact (l_old s L p0 q0 E1)].
  - intros p0 Hp0. rewrite Hc in Hp0. inversion Hp0; subst p0.
    eexists. split; [eapply upd_nth_same; eauto|]. split; [reflexivity|].
    exact (qok_enqueue _ _ _ _ _ _ _ K Et G2).
  - split; [assumption|]. eapply Forall_impl; [|exact G2]. simpl. intros; lia.
Qed.

Lemma liveq_grant s t p q e : LiveQ s -> nth_error (thr s) t = Some (L2 p) ->
  nth_error (heap s) p = Some q -> find_entry t (ents q) = Some e -> e_ready e = true ->
  LiveQ (grant s t p e).
Proof.
  intros L Et Eq Ef Er. destruct (find_entry_In _ _ _ Ef) as [Hin Etok].
  destruct (liveq_obj s p q L Eq) as [(Hc & R & K)|[Z _]]; [|rewrite Z in Hin; destruct Hin].
  pose proof (liveq_inv s L) as I.
  constructor; simpl; [apply (l_old s L)| |].
  - intros p0 Hp0. rewrite Hc in Hp0. inversion Hp0; subst p0. exists q. split; [assumption|]. split; [assumption|].
    apply qok_grant; assumption.
  - destruct (l_glog s L) as [G1 G2]. split; constructor; try assumption.
    + apply Forall_forall. intros g Hg.
      apply (i_wait s I p q e g Eq Hin); [rewrite Etok, Et; reflexivity|assumption].
    + eapply i_seqb; eauto.
Qed.

Lemma liveq_after_remove prune s p id q : LiveQ s -> nth_error (heap s) p = Some q ->
  LiveQ (after_remove prune s p id q).
Proof.
  intros L Eq. unfold after_remove. destruct (has_tok id (ents q)) eqn:Eh; [|assumption].
  destruct (liveq_obj s p q L Eq) as [(Hc & Rq & K)|[Z _]]; [|rewrite Z in Eh; discriminate].
  rewrite Hc, Rq. simpl. rewrite Nat.eqb_refl, andb_true_r.
  constructor; simpl; [| |apply (l_glog s L)].
  - (* the emptied object is retired and dropped from the map at once *)
    intros p0 q0 E0. destruct (upd_nth_inv _ _ _ _ _ _ Eq E0) as [[-> ->]|[Np E1]]; simpl.
    + destruct (prune && is_nil (removed id (ents q))) eqn:Ed; [right|left; reflexivity].
      apply andb_true_iff in Ed. destruct Ed as [_ Ed].
      split; [|reflexivity]. destruct (removed id (ents q)); [reflexivity|discriminate].
    + destruct (l_old s L p0 q0 E1); [congruence|auto].
  - intros p0 Hp0. destruct (prune && is_nil (removed id (ents q))) eqn:Ed; [discriminate|].
    inversion Hp0; subst p0. eexists. split; [eapply upd_nth_same; eauto|]. split; [reflexivity|].
    apply qok_removed; assumption.
Qed.

Lemma after_remove_absent prune s p t q : LiveQ s -> nth_error (thr s) t = Some (L2 p) ->
  nth_error (heap s) p = Some q ->
  forall p0 q0 e, nth_error (heap (after_remove prune s p t q)) p0 = Some q0 -> In e (ents q0) -> e_tok e <> t.
Proof.
  intros L Et Eq p0 q0 e E0 Hin Z. pose proof (liveq_inv s L) as I.
  assert (O : forall q1, nth_error (heap s) p0 = Some q1 -> In e (ents q1) -> p0 = p).
  { intros q1 E1 H1. destruct (i_thr s I p0 q1 e E1 H1) as [T|T]; rewrite Z, Et in T; congruence. }
  unfold after_remove in E0. destruct (has_tok t (ents q)) eqn:Eh.
  - destruct (upd_nth_inv _ _ _ _ _ _ Eq E0) as [[-> ->]|[Np E1]]; [|exact (Np (O q0 E1 Hin))].
    destruct (removed_toks _ _ Eh) as (t1 & t2 & T & T'). pose proof (i_nodup s I p q Eq) as N. rewrite T in N.
    apply (NoDup_remove_2 _ _ _ N). rewrite <- Z, <- T'. exact (in_map e_tok _ e Hin).
  - pose proof (O q0 E0 Hin); subst p0. rewrite Eq in E0. inversion E0; subst q0.
    assert (has_tok t (ents q) = true) by (apply has_tok_In; eauto). congruence.
Qed.

Lemma liveq_step prune s a s' : LiveQ s -> step prune s a = Some s' -> LiveQ s'.
Proof.
  intros L E.
  destruct (step_trans _ _ _ _ E).
  - (* TGet *) eapply liveq_set_thr; eauto. split; discriminate.
  - (* TNew *) apply (liveq_set_thr (new_queue s) t L0); [apply liveq_new_queue; assumption|exact Et|split; discriminate].
  - (* TRetry *) eapply liveq_set_thr; eauto. split; discriminate.
  - (* TEnq *) eapply liveq_enqueue; eauto.
  - (* TGrant *) eapply liveq_grant; eauto.
  - (* TCancel *) apply liveq_set_thr_absent; [apply liveq_after_remove; assumption|]. apply after_remove_absent; assumption.
  - (* TRemove *) apply liveq_after_remove; assumption.
Qed.

(* [P] may speak of the actions still to come, as [valid_trace] does *)
Lemma run_trace_invariant prune (P : st -> list action -> Prop) :
  (forall s a r s', P s (a :: r) -> step prune s a = Some s' -> P s' r) ->
  forall acts s s', P s acts -> run prune s acts = Some s' -> P s' [].
Proof.
  intros St. induction acts as [|a r IH]; intros s s' I E; simpl in E.
  - inversion E; subst; assumption.
  - destruct (step prune s a) as [s1|] eqn:Es; [|discriminate]. eapply IH; [eapply St; eauto|eassumption].
Qed.

Lemma run_invariant prune (P : st -> Prop) :
  (forall s a s', P s -> step prune s a = Some s' -> P s') ->
  forall acts s s', P s -> run prune s acts = Some s' -> P s'.
Proof. intros St. apply (run_trace_invariant prune (fun s _ => P s)). intros s a _. apply St. Qed.

Lemma reach_liveq prune n acts s : run prune (init n) acts = Some s -> LiveQ s.
Proof. apply (run_invariant prune LiveQ (liveq_step prune)), liveq_init. Qed.

Lemma reach_inv prune n acts s : run prune (init n) acts = Some s -> Inv s.
Proof. intros R. exact (liveq_inv s (reach_liveq _ _ _ _ R)). Qed.

Lemma holder_is_head s p q e : LiveQ s -> nth_error (heap s) p = Some q -> holder_in s q e ->
  cur s = Some p /\ exists tl, ents q = e :: tl.
Proof.
  intros L E [Hin Hh]. pose proof (liveq_inv s L) as I. split.
  - apply (queued_is_cur s p q e L E Hin).
  - exact (ready_ok_head _ _ (i_rdy s I p q E) Hin (i_hrdy s I p q e E Hin Hh)).
Qed.

Example lock_mutex_nonvacuous :
  exists s q e, run true (init 3) [AStep 0; AStep 1; AStep 0; AStep 1; AStep 2; AStep 2; AStep 0] = Some s /\
                nth_error (heap s) 0 = Some q /\ holder_in s q e /\ length (ents q) = 3.
Proof.
  eexists. eexists. eexists. split; [vm_compute; reflexivity|].
  split; [reflexivity|]. split; [split; [left; reflexivity|reflexivity]|reflexivity].
Qed.

(* C14, head progress; for every state with the invariant *)
Theorem lock_head_is_ready prune s : LiveQ s ->
  forall p q e tl, nth_error (heap s) p = Some q -> ents q = e :: tl ->
    cur s = Some p /\ e_ready e = true /\
    ((nth_error (thr s) (e_tok e) = Some (L2 p) /\ exists s', step prune s (AStep (e_tok e)) = Some s') \/
     (nth_error (thr s) (e_tok e) = Some (H p) /\ exists s', step prune s (ARemove p (e_tok e)) = Some s')).
Proof.
  intros L p q e tl E Q. pose proof (liveq_inv s L) as I.
  assert (Hin : In e (ents q)) by (rewrite Q; left; reflexivity).
  pose proof (i_rdy s I p q E) as Rd. rewrite Q in Rd. destruct Rd as [Re _].
  split; [apply (queued_is_cur s p q e L E Hin)|]. split; [assumption|].
  destruct (i_thr s I p q e E Hin) as [T|T]; [left|right]; (split; [assumption|]).
  - simpl. rewrite T, E, Q. simpl. rewrite Nat.eqb_refl, Re. eexists; reflexivity.
  - simpl. unfold do_remove. rewrite E. destruct (q_remove prune (e_tok e) q). eexists; reflexivity.
Qed.

Example lock_fifo_nonvacuous :
  exists s, run true (init 3) [AStep 0; AStep 1; AStep 0; AStep 1; AStep 2; AStep 2; AStep 0;
                               ARemove 0 0; AStep 1; ACancel 2; ARemove 0 1] = Some s /\
            glog s = [1; 0] /\ cur s = None.
Proof. eexists. split; [vm_compute; reflexivity|]. split; reflexivity. Qed.

Definition queued (s : st) (p t : nat) : Prop :=
  exists q, nth_error (heap s) p = Some q /\ In t (map e_tok (ents q)).

Lemma after_remove_keeps prune s p id q : nth_error (heap s) p = Some q ->
  forall p0 t, t <> id -> queued s p0 t -> queued (after_remove prune s p id q) p0 t.
Proof.
  intros Eq p0 t N (q0 & E0 & Hin). unfold after_remove. destruct (has_tok id (ents q)) eqn:Eh; [|exists q0; auto].
  unfold queued. simpl. rewrite upd_nth_cases, Eq. destruct (Nat.eqb_spec p0 p) as [->|Np]; [|exists q0; auto].
  rewrite Eq in E0. inversion E0; subst q0. eexists. split; [reflexivity|]. simpl.
  destruct (removed_toks _ _ Eh) as (t1 & t2 & T & ->). rewrite T in Hin.
  destruct (in_elt_inv _ _ _ _ Hin); [congruence|assumption].
Qed.

(* A caller in the select is queued in the object it holds a pointer to. This is kept along traces
   in which Unlock uses only ids that Lock returned or ids that no caller has ([valid_trace]);
   with [lock_head_is_ready] it gives C14's "no waiter is left blocked". *)
Definition waiters_queued (s : st) : Prop := forall t p, nth_error (thr s) t = Some (L2 p) -> queued s p t.

Lemma waiters_queued_init n : waiters_queued (init n).
Proof.
  intros t p E. simpl in E. exfalso. apply nth_error_In in E. apply repeat_spec in E. discriminate.
Qed.

Lemma waiters_queued_frame s s' t c : waiters_queued s -> (forall t0 p0, t0 <> t -> queued s p0 t0 -> queued s' p0 t0) ->
  thr s' = upd t c (thr s) -> (forall p, c = L2 p -> queued s' p t) -> waiters_queued s'.
Proof.
  intros J K Ht N t0 p0 T. rewrite Ht, upd_nth_cases in T. destruct (Nat.eqb_spec t0 t) as [->|Nt].
  - destruct (nth_error (thr s) t); [|discriminate]. apply N. congruence.
  - apply K; [assumption|]. apply J. assumption.
Qed.

Lemma waiters_queued_step prune s a s' : waiters_queued s -> valid_action s a = true -> step prune s a = Some s' -> waiters_queued s'.
Proof.
  intros J V E.
  destruct (step_trans _ _ _ _ E).
  - (* TGet *) apply (waiters_queued_frame s _ t (L1 p) J); [intros t0 p0 _ Q; exact Q|reflexivity|intros p0 [=]].
  - (* TNew *) apply (waiters_queued_frame s _ t (L1 (length (heap s))) J); [|reflexivity|intros p0 [=]].
    intros t0 p0 _ (q & Eq & R). exists q. split; [|assumption]. simpl.
    rewrite nth_error_app1; [assumption|apply nth_error_Some; congruence].
  - (* TRetry *) apply (waiters_queued_frame s _ t L0 J); [intros t0 p0 _ Q; exact Q|reflexivity|intros p0 [=]].
  - (* TEnq *) apply (waiters_queued_frame s _ t (L2 p) J); [|reflexivity|]; unfold queued; simpl.
    + intros t0 p0 _ (q0 & E0 & Hin). rewrite upd_nth_cases, Eq.
      destruct (Nat.eqb_spec p0 p) as [->|Np]; [|exists q0; auto]. rewrite Eq in E0. inversion E0; subst q0.
      eexists. split; [reflexivity|]. simpl. rewrite map_app. apply in_app_iff. left. assumption.
    + intros p0 [= <-]. rewrite (upd_nth_same _ _ _ _ Eq). eexists. split; [reflexivity|].
      simpl. rewrite map_app. apply in_app_iff. right. left. reflexivity.
  - (* TGrant *) apply (waiters_queued_frame s _ t (H p) J); [intros t0 p0 _ Q; exact Q|reflexivity|intros p0 [=]].
  - (* TCancel *) apply (waiters_queued_frame s _ t LCancelled J); [|simpl; rewrite after_remove_thr; reflexivity|intros p0 [=]].
    intros t0 p0 Nt Q. exact (after_remove_keeps prune s p t q Eq p0 t0 Nt Q).
  - (* TRemove *) intros t0 p0 T. rewrite after_remove_thr in T.
    apply (after_remove_keeps prune s p id q Eq p0 t0); [|apply J; assumption].
    intros ->. simpl in V. unfold known_id in V. rewrite T in V. discriminate.
Qed.

Lemma reach_waiters_queued prune n acts s : valid_trace prune (init n) acts = true ->
  run prune (init n) acts = Some s -> waiters_queued s.
Proof.
  intros V R.
  apply (run_trace_invariant prune (fun s r => valid_trace prune s r = true /\ waiters_queued s)) with (3 := R).
  - intros s0 a r s1 [V0 J] E. simpl in V0. rewrite E in V0. apply andb_true_iff in V0.
    destruct V0 as [Va Vr]. split; [assumption|]. exact (waiters_queued_step _ _ _ _ J Va E).
  - split; [assumption|apply waiters_queued_init].
Qed.

Example lock_no_stuck_nonvacuous :
  valid_trace true (init 2) [AStep 0; AStep 0; AStep 1; AStep 1; AStep 0; ARemove 0 0] = true /\
  exists s, run true (init 2) [AStep 0; AStep 0; AStep 1; AStep 1; AStep 0; ARemove 0 0] = Some s /\
            nth_error (thr s) 1 = Some (L2 0).
Proof. split; [vm_compute; reflexivity|]. eexists. split; [vm_compute; reflexivity|reflexivity]. Qed.

(* an empty current queue has just been created or found by a caller that is about to enqueue *)
Definition empty_cur_entered (s : st) : Prop :=
  forall p q, cur s = Some p -> nth_error (heap s) p = Some q -> ents q = [] ->
  exists t, nth_error (thr s) t = Some (L1 p).

Lemma empty_cur_entered_set_thr s t c : empty_cur_entered s ->
  (forall p, cur s = Some p -> nth_error (thr s) t <> Some (L1 p)) -> empty_cur_entered (set_thr s t c).
Proof.
  intros P N p0 q0 C0 E0 Z0. destruct (P p0 q0 C0 E0 Z0) as [t0 T0]. exists t0. simpl.
  rewrite upd_nth_other; [assumption|]. intros <-. exact (N p0 C0 T0).
Qed.

Lemma empty_cur_entered_after_remove s p id q : LiveQ s -> empty_cur_entered s -> nth_error (heap s) p = Some q ->
  empty_cur_entered (after_remove true s p id q).
Proof.
  intros L P Eq. unfold after_remove. destruct (has_tok id (ents q)) eqn:Eh; [|assumption].
  destruct (l_old s L p q Eq) as [Hc|[Z _]]; [|rewrite Z in Eh; discriminate].
  intros p0 q0 C0 E0 Z0. exfalso. simpl in C0, E0. rewrite Hc in C0. simpl in C0.
  rewrite Nat.eqb_refl, andb_true_r in C0.
  destruct (is_nil (removed id (ents q))) eqn:Eb; [discriminate|]. inversion C0; subst p0.
  rewrite (upd_nth_same _ _ _ _ Eq) in E0. inversion E0; subst q0. simpl in Z0. rewrite Z0 in Eb. discriminate.
Qed.

Lemma empty_cur_entered_step s a s' : LiveQ s -> empty_cur_entered s -> step true s a = Some s' -> empty_cur_entered s'.
Proof.
  intros L P E.
  destruct (step_trans _ _ _ _ E).
  - (* TGet *) intros p0 q0 C0 E0 Z0. simpl in *. rewrite Ec in C0. inversion C0; subst p0.
    exists t. eapply upd_nth_same; eauto.
  - (* TNew *) intros p0 q0 C0 E0 Z0. simpl in *. inversion C0; subst p0. exists t. eapply upd_nth_same; eauto.
  - (* TRetry: the retired object is not the current one *)
    apply empty_cur_entered_set_thr; [assumption|]. intros p0 C0 T0. rewrite Et in T0. inversion T0; subst p0.
    destruct (l_cur s L p C0) as (q2 & E2 & R2 & _). congruence.
  - (* TEnq *) intros p0 q0 C0 E0 Z0. simpl in *. destruct (l_old s L p q Eq) as [Hc|[_ R]]; [|congruence].
    rewrite Hc in C0. inversion C0; subst p0. rewrite (upd_nth_same _ _ _ _ Eq) in E0. inversion E0; subst q0.
    simpl in Z0. destruct (ents q); discriminate.
  - (* TGrant *) apply (empty_cur_entered_set_thr s t (H p)); [assumption|]. intros p0 _ T0. congruence.
  - (* TCancel *) apply empty_cur_entered_set_thr; [apply empty_cur_entered_after_remove; assumption|]. intros p0 _ T0.
    rewrite after_remove_thr in T0. congruence.
  - (* TRemove *) apply empty_cur_entered_after_remove; assumption.
Qed.

Definition Inv_pruned (s : st) : Prop := LiveQ s /\ empty_cur_entered s.

Lemma inv_pruned_step s a s' : Inv_pruned s -> step true s a = Some s' -> Inv_pruned s'.
Proof. intros [I P] E. split; [eapply liveq_step; eauto|eapply empty_cur_entered_step; eauto]. Qed.

Lemma inv_pruned_init n : Inv_pruned (init n).
Proof. split; [apply liveq_init|intros p q E; discriminate]. Qed.

Lemma reach_inv_pruned n acts s : run true (init n) acts = Some s -> Inv_pruned s.
Proof. apply (run_invariant true Inv_pruned inv_pruned_step), inv_pruned_init. Qed.

(* with pruning: the key has a map entry only while somebody is queued on it or is between
   getQueue and enqueue *)
Theorem lock_no_residue s : Inv_pruned s -> has_entry s = true -> in_use s = true.
Proof.
  intros [L P] Hh. unfold has_entry in Hh. destruct (cur s) as [p|] eqn:Ec; [|discriminate].
  destruct (l_cur s L p Ec) as [q [Eq _]]. unfold in_use. apply orb_true_iff.
  destruct (ents q) as [|e tl] eqn:Q.
  - right. destruct (P p q Ec Eq Q) as [t T]. apply existsb_exists. exists (L1 p).
    split; [eapply nth_error_In; eauto|reflexivity].
  - left. apply existsb_exists. exists q. split; [eapply nth_error_In; eauto|]. rewrite Q. reflexivity.
Qed.

Example lock_no_residue_nonvacuous :
  exists s, run true (init 1) [AStep 0; AStep 0; AStep 0; ARemove 0 0] = Some s /\
            has_entry s = false /\ nth_error (thr s) 0 = Some (H 0).
Proof. eexists. split; [vm_compute; reflexivity|]. split; reflexivity. Qed.

Lemma after_remove_cur s p id q : cur (after_remove false s p id q) = cur s.
Proof. unfold after_remove. destruct (has_tok id (ents q)); reflexivity. Qed.

(* the code of the pinned commit never drops a map entry *)
Lemma entry_kept_unpruned : forall acts s s', run false s acts = Some s' ->
  has_entry s = true -> has_entry s' = true.
Proof.
  intros acts s s' R Hh. apply (run_invariant false (fun s => has_entry s = true)) with (2 := Hh) (3 := R).
  intros s0 a s1 H0 E. unfold has_entry in *.
  (* [cur] is set by TNew (to a queue), kept by TCancel and TRemove ([after_remove_cur]) and by the rest *)
  destruct (step_trans _ _ _ _ E); simpl; rewrite ?after_remove_cur; (assumption || reflexivity).
Qed.

Lemma grun_invariant prune (P : st -> Prop) :
  (forall s a s', P s -> step prune s a = Some s' -> P s') ->
  forall acts g g', Forall P g -> grun prune g acts = Some g' -> Forall P g'.
Proof.
  intros St. induction acts as [|[k a] r IH]; intros g g' F R; simpl in R; [inversion R; subst; assumption|].
  unfold gstep in R. destruct (nth_error g k) as [s|] eqn:Ek; [|discriminate].
  destruct (step prune s a) as [s'|] eqn:Es; [|discriminate].
  apply (IH (upd k s' g)); [|assumption]. apply upd_Forall; [assumption|].
  rewrite Forall_forall in F. exact (St s a s' (F s (nth_error_In _ _ Ek)) Es).
Qed.

Lemma map_size_inv_pruned g : Forall Inv_pruned g -> map_size g <= keys_in_use g.
Proof.
  unfold map_size, keys_in_use. induction 1 as [|s l K Fl IH]; simpl; [lia|].
  destruct (has_entry s) eqn:Hh.
  - rewrite (lock_no_residue s K Hh). simpl. lia.
  - destruct (in_use s); simpl; lia.
Qed.
