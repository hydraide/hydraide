(* The write-buffer invariant for every schedule of any number of writers,
   deleters and concurrent flushers (late = false = the code) in which no key is re-created while
   an unwritten batch still holds an older record object of it; its consequences at quiescence
   and after a close-write that runs alone. *)
From HV Require Import Base.Prelude Conc.Buffer.

Lemma upd_same {A} (f : nat -> A) k v : upd f k v k = v.
Proof. unfold upd. rewrite Nat.eqb_refl. reflexivity. Qed.
Lemma upd_other {A} (f : nat -> A) k v x : x <> k -> upd f k v x = f x.
Proof. unfold upd. intro H. apply Nat.eqb_neq in H. rewrite H. reflexivity. Qed.

Lemma qhas_spec s k q : qhas s k q = true <-> exists o, In o q /\ keyof s o = k.
Proof.
  unfold qhas. rewrite existsb_exists.
  split; intros [o [A B]]; exists o; split; auto; apply Nat.eqb_eq; exact B.
Qed.
Lemma qhas_false s k q o : qhas s k q = false -> In o q -> keyof s o <> k.
Proof.
  intros H Hi E. assert (qhas s k q = true) by (apply qhas_spec; eauto). congruence.
Qed.
Lemma qadd_keep s o q x : In x q -> In x (qadd s o q).
Proof. unfold qadd. destruct (qhas s (keyof s o) q); [auto|]. intro H. apply in_or_app; auto. Qed.
Lemma qadd_in s o q x : In x (qadd s o q) -> In x q \/ x = o.
Proof.
  unfold qadd. destruct (qhas s (keyof s o) q); [auto|]. intro H. apply in_app_or in H.
  destruct H as [H|[H|[]]]; auto.
Qed.
Lemma qadd_new s o q : qhas s (keyof s o) q = false -> In o (qadd s o q).
Proof. unfold qadd. intros ->. apply in_or_app. right. left. reflexivity. Qed.
Lemma qdel_in s k q x : In x (qdel s k q) <-> In x q /\ keyof s x <> k.
Proof.
  unfold qdel. rewrite filter_In, negb_true_iff, Nat.eqb_neq. reflexivity.
Qed.
Lemma qminus_in s q b x : In x (qminus s q b) <-> In x q /\ qhas s (keyof s x) b = false.
Proof. unfold qminus. rewrite filter_In, negb_true_iff. reflexivity. Qed.
Lemma qminus_self s q : qminus s q q = [].
Proof.
  destruct (qminus s q q) as [|a l] eqn:E; [reflexivity|].
  assert (A : In a (qminus s q q)) by (rewrite E; left; reflexivity).
  apply qminus_in in A as [A B]. destruct (qhas_false s _ q a B A). reflexivity.
Qed.
Lemma qhas_ext s s' k q : (forall o, In o q -> keyof s' o = keyof s o) -> qhas s' k q = qhas s k q.
Proof.
  intro H. unfold qhas. induction q as [|a q IH]; simpl; [reflexivity|].
  rewrite H by (left; reflexivity). rewrite IH; [reflexivity|]. intros o Ho. apply H. right. exact Ho.
Qed.
Lemma qdel_ext s s' k q : (forall o, In o q -> keyof s' o = keyof s o) -> qdel s' k q = qdel s k q.
Proof.
  intro H. apply filter_ext_in. intros o Ho. rewrite (H o Ho). reflexivity.
Qed.

(* [ts] are the threads that may flush: only they hold a batch ([i_ts]), and the hypothesis on
   re-creation looks at the batches of [ts] only. Durability is read off [i_main]. *)
Record Inv (ts : list nat) (s : st) : Prop := {
  i_cur  : forall k o, cur s k = Some o -> keyof s o = k /\ otomb (objs s o) = false /\ o < nobj s;
  i_qlt  : forall o, In o (queue s) -> o < nobj s;
  i_blt  : forall x o, In o (batch (pcs s x)) -> o < nobj s;
  i_bcur : forall x o, In o (batch (pcs s x)) -> cur s (keyof s o) = Some o \/ cur s (keyof s o) = None;
  i_qcur : forall o, In o (queue s) -> cur s (keyof s o) = Some o \/ cur s (keyof s o) = None;
  i_main : forall k o, cur s k = Some o ->
             In o (queue s) \/ (exists x, In o (batch (pcs s x))) \/ disk s k = Some (oval (objs s o));
  i_nl   : forall x all, pcs s x <> FLate all;
  i_ts   : forall x, batch (pcs s x) <> [] -> In x ts
}.

Lemma start_batch p : batch (start p) = [].
Proof. destruct p; reflexivity. Qed.

Lemma inv_init ts progs : Inv ts (init progs).
Proof.
  constructor; cbn.
  - discriminate.
  - intros o [].
  - intros x o. rewrite start_batch. intros [].
  - intros x o. rewrite start_batch. intros [].
  - intros o [].
  - discriminate.
  - intros x all. destruct (progs x); discriminate.
  - intros x. rewrite start_batch. congruence.
Qed.

Lemma batch_upd (f : nat -> pc) t p x : batch (upd f t p x) = if Nat.eqb x t then batch p else batch (f x).
Proof. unfold upd. destruct (Nat.eqb x t); reflexivity. Qed.

Lemma unmap_cur (c : nat -> option nat) k k' x :
  c k' = Some x \/ c k' = None -> upd c k None k' = Some x \/ upd c k None k' = None.
Proof. unfold upd. destruct (Nat.eqb k' k); auto. Qed.

Section Step.
Variable ts : list nat.

(* Every step of [tstep false] is a chain of updates of single fields; each update keeps the
   invariant under a condition of its own. The lemmas speak of the fields, so that they apply to
   the records [tstep] builds as they stand. *)
Section Fields.
Variables (P : nat -> pc) (O : nat -> obj) (n : nat) (C : nat -> option nat) (Q : list nat)
  (D : nat -> option nat).
Let s := {| pcs := P; objs := O; nobj := n; cur := C; queue := Q; disk := D |}.

Lemma inv_pc t p :
  Inv ts s -> In t ts ->
  (forall o, In o (batch p) -> In o (batch (P t)) \/ In o Q) ->
  (forall k o, C k = Some o -> In o (batch (P t)) ->
     In o (batch p) \/ In o Q \/ D k = Some (oval (O o))) ->
  (forall all, p <> FLate all) ->
  Inv ts {| pcs := upd P t p; objs := O; nobj := n; cur := C; queue := Q; disk := D |}.
Proof.
  intros [Ic Iq Ib Ibc Iqc Im Inl Its] Ht Hn Ho Hp.
  constructor; cbn; [exact Ic|exact Iq| | |exact Iqc| | |].
  - intros x o. rewrite batch_upd. destruct (Nat.eqb_spec x t) as [->|_]; [|apply Ib].
    intro A. destruct (Hn o A) as [B|B]; [apply (Ib t o B)|apply (Iq o B)].
  - intros x o. rewrite batch_upd. destruct (Nat.eqb_spec x t) as [->|_]; [|apply Ibc].
    intro A. destruct (Hn o A) as [B|B]; [apply (Ibc t o B)|apply (Iqc o B)].
  - intros k o Ck. destruct (Im k o Ck) as [A|[[x A]|A]]; [left; exact A| |right; right; exact A].
    destruct (Nat.eq_dec x t) as [->|Hx].
    + destruct (Ho k o Ck A) as [B|[B|B]]; [right; left|left; exact B|right; right; exact B].
      exists t. rewrite upd_same. exact B.
    + right. left. exists x. rewrite upd_other by exact Hx. exact A.
  - intros x all. unfold upd. destruct (Nat.eqb x t); [apply Hp|apply Inl].
  - intros x. rewrite batch_upd. destruct (Nat.eqb_spec x t) as [->|_]; [auto|apply Its].
Qed.

Lemma inv_pc_same t p :
  Inv ts s -> In t ts -> batch p = batch (P t) -> (forall all, p <> FLate all) ->
  Inv ts {| pcs := upd P t p; objs := O; nobj := n; cur := C; queue := Q; disk := D |}.
Proof. intros I Ht E Hp. apply inv_pc; auto; rewrite E; auto. Qed.

Lemma inv_enqueue o :
  Inv ts s -> o < n -> C (keyof s o) = Some o \/ C (keyof s o) = None ->
  Inv ts {| pcs := P; objs := O; nobj := n; cur := C; queue := qadd s o Q; disk := D |}.
Proof.
  intros [Ic Iq Ib Ibc Iqc Im Inl Its] Lo Co.
  constructor; cbn; [exact Ic| |exact Ib|exact Ibc| | |exact Inl|exact Its].
  - intros x A. apply qadd_in in A as [A| ->]; [apply Iq; exact A|exact Lo].
  - intros x A. apply qadd_in in A as [A| ->]; [apply Iqc; exact A|exact Co].
  - intros k x Ck. destruct (Im k x Ck) as [A|A]; [left; apply qadd_keep; exact A|right; exact A].
Qed.

(* a queued object of the key of a current object can only be that object *)
Lemma qadd_cur o : Inv ts s -> C (keyof s o) = Some o -> In o (qadd s o Q).
Proof.
  intros I Co. destruct (qhas s (keyof s o) Q) eqn:E; [|apply qadd_new; exact E].
  apply qhas_spec in E as [o2 [A B]]. apply qadd_keep.
  destruct (i_qcur ts s I o2 A) as [F|F]; cbn in F; rewrite B, Co in F; [injection F as ->; exact A|discriminate].
Qed.

Lemma inv_dequeue q :
  Inv ts s -> (forall o, In o q -> In o Q) ->
  (forall k o, C k = Some o -> In o Q -> In o q \/ exists x, In o (batch (P x))) ->
  Inv ts {| pcs := P; objs := O; nobj := n; cur := C; queue := q; disk := D |}.
Proof.
  intros [Ic Iq Ib Ibc Iqc Im Inl Its] Sub Keep.
  constructor; cbn; [exact Ic| |exact Ib|exact Ibc| | |exact Inl|exact Its].
  - intros o A. apply Iq, Sub, A.
  - intros o A. apply Iqc, Sub, A.
  - intros k o Ck. destruct (Im k o Ck) as [A|A]; [|right; exact A].
    destruct (Keep k o Ck A) as [B|B]; [left; exact B|right; left; exact B].
Qed.

Lemma inv_qdel k : Inv ts s -> C k = None ->
  Inv ts {| pcs := P; objs := O; nobj := n; cur := C; queue := qdel s k Q; disk := D |}.
Proof.
  intros I Ck. apply inv_dequeue; [exact I| |].
  - intros o A. apply qdel_in in A. apply A.
  - intros k' o Co A. left. apply qdel_in. split; [exact A|].
    destruct (i_cur ts s I k' o Co) as [-> _]. congruence.
Qed.

Lemma inv_unmap k : Inv ts s ->
  Inv ts {| pcs := P; objs := O; nobj := n; cur := upd C k None; queue := Q; disk := D |}.
Proof.
  intros [Ic Iq Ib Ibc Iqc Im Inl Its].
  assert (Old : forall k' o, upd C k None k' = Some o -> C k' = Some o).
  { intros k' o. unfold upd. destruct (Nat.eqb k' k); [discriminate|auto]. }
  constructor; cbn; [|exact Iq|exact Ib| | | |exact Inl|exact Its].
  - intros k' o Co. apply Ic, Old, Co.
  - intros x o A. apply unmap_cur, (Ibc x), A.
  - intros o A. apply unmap_cur, Iqc, A.
  - intros k' o Co. apply Im, Old, Co.
Qed.

Lemma inv_set_obj o x :
  Inv ts s -> okey x = keyof s o ->
  (C (keyof s o) = Some o -> otomb x = otomb (O o) /\ (oval x = oval (O o) \/ In o Q)) ->
  Inv ts {| pcs := P; objs := upd O o x; nobj := n; cur := C; queue := Q; disk := D |}.
Proof.
  intros [Ic Iq Ib Ibc Iqc Im Inl Its] Kx Cx.
  assert (KF : forall y, okey (upd O o x y) = keyof s y).
  { intro y. unfold upd. destruct (Nat.eqb_spec y o) as [->|_]; [exact Kx|reflexivity]. }
  constructor; unfold keyof; cbn; [|exact Iq|exact Ib| | | |exact Inl|exact Its].
  - intros k o' Co. rewrite KF. destruct (Ic k o' Co) as [A [B F]]. split; [exact A|split; [|exact F]].
    unfold upd. destruct (Nat.eqb_spec o' o) as [->|_]; [|exact B].
    rewrite <- A in Co. destruct (Cx Co) as [T _]. rewrite T. exact B.
  - intros y o' A. rewrite KF. apply (Ibc y o' A).
  - intros o' A. rewrite KF. apply (Iqc o' A).
  - intros k o' Co. destruct (Im k o' Co) as [A|[A|A]]; [left; exact A|right; left; exact A|].
    unfold upd. destruct (Nat.eqb_spec o' o) as [->|_]; [|right; right; exact A].
    destruct (Ic k o Co) as [Ko _]. rewrite <- Ko in Co.
    destruct (Cx Co) as [_ [E|E]]; [right; right; rewrite E; exact A|left; exact E].
Qed.

Lemma inv_write o :
  Inv ts s -> C (keyof s o) = Some o \/ C (keyof s o) = None ->
  Inv ts {| pcs := P; objs := O; nobj := n; cur := C; queue := Q;
            disk := upd D (keyof s o) (if otomb (O o) then None else Some (oval (O o))) |}.
Proof.
  intros [Ic Iq Ib Ibc Iqc Im Inl Its] Co.
  constructor; cbn; [exact Ic|exact Iq|exact Ib|exact Ibc|exact Iqc| |exact Inl|exact Its].
  intros k o' Ck. destruct (Nat.eq_dec k (keyof s o)) as [->|Hk].
  - destruct Co as [Co|Co]; rewrite Co in Ck; [injection Ck as <-|discriminate].
    right. right. rewrite upd_same. destruct (Ic _ _ Co) as [_ [T _]]. cbn in T. rewrite T. reflexivity.
  - rewrite upd_other by exact Hk. apply Im, Ck.
Qed.

(* Save of a key without a record *)
Lemma inv_alloc k v :
  Inv ts s ->
  (forall o, In o Q -> keyof s o <> k) ->
  (forall x o, In o (batch (P x)) -> keyof s o <> k) ->
  Inv ts {| pcs := P; objs := upd O n {| okey := k; oval := v; otomb := false; ofile := false |};
            nobj := S n; cur := upd C k (Some n); queue := Q ++ [n]; disk := D |}.
Proof.
  intros [Ic Iq Ib Ibc Iqc Im Inl Its] Qk Bk.
  set (O' := upd O n {| okey := k; oval := v; otomb := false; ofile := false |}).
  assert (Old : forall o, o < n -> O' o = O o).
  { intros o L. apply upd_other. lia. }
  assert (OldC : forall o, o < n -> keyof s o <> k ->
            C (keyof s o) = Some o \/ C (keyof s o) = None ->
            upd C k (Some n) (okey (O' o)) = Some o \/ upd C k (Some n) (okey (O' o)) = None).
  { intros o L N F. rewrite Old by exact L. rewrite upd_other by exact N. exact F. }
  constructor; unfold keyof; cbn; fold O'; [| | | | | |exact Inl|exact Its].
  - intros k' o Co. unfold upd in Co. destruct (Nat.eqb_spec k' k) as [->|_].
    + injection Co as <-. unfold O'. rewrite upd_same. cbn. auto.
    + destruct (Ic k' o Co) as [A [B F]]. rewrite Old by exact F. auto.
  - intros o A. apply in_app_or in A as [A|[<-|[]]]; [apply Iq in A; cbn in A|]; lia.
  - intros x o A. apply (Ib x) in A. cbn in A. lia.
  - intros x o A. apply OldC; [apply (Ib x o A)|apply (Bk x o A)|apply (Ibc x o A)].
  - intros o A. apply in_app_or in A as [A|[<-|[]]].
    + apply OldC; [apply (Iq o A)|apply (Qk o A)|apply (Iqc o A)].
    + left. unfold O'. rewrite upd_same. cbn. apply upd_same.
  - intros k' o Co. unfold upd in Co. destruct (Nat.eqb_spec k' k) as [->|_].
    + injection Co as <-. left. apply in_or_app. right. left. reflexivity.
    + destruct (Ic k' o Co) as [_ [_ L]]. rewrite Old by exact L.
      destruct (Im k' o Co) as [A|A]; [left; apply in_or_app; left; exact A|right; exact A].
Qed.
End Fields.

Lemma inv_step s t s' :
  Inv ts s -> In t ts -> recreates s ts t = false -> tstep false s t = Some s' -> Inv ts s'.
Proof.
  destruct s as [P O n C Q D]. unfold tstep, recreates, set_pc. cbn [pcs objs nobj cur queue disk].
  intros I Ht Hr H.
  destruct (P t) as [| k v th | k | | b | b all | all |] eqn:Pt; try discriminate.
  - (* Save *)
    set (nxt := if th then FColl else Done) in H.
    assert (Bn : batch nxt = batch (P t)) by (rewrite Pt; destruct th; reflexivity).
    assert (Ln : forall all, nxt <> FLate all) by (destruct th; discriminate).
    destruct (C k) as [o|] eqn:Ck; injection H as <-.
    + (* the record is queued, then takes the value *)
      destruct (i_cur ts _ I k o Ck) as [Ko [_ Lo]]. rewrite <- Ko in Ck.
      apply inv_pc_same; [|exact Ht|exact Bn|exact Ln].
      apply inv_set_obj; [apply inv_enqueue; [exact I|exact Lo|left; exact Ck]|reflexivity|].
      intros _. split; [reflexivity|right]. apply qadd_cur; assumption.
    + (* no record: queued objects of the key give way to a fresh one *)
      assert (NK : forall x o, In o (batch (P x)) -> okey (O o) <> k).
      { intros x o A E. apply not_true_iff_false in Hr. apply Hr, existsb_exists. exists x.
        split; [|apply qhas_spec; eauto].
        apply (i_ts ts _ I). cbn. intro Z. rewrite Z in A. destruct A. }
      (* the model takes [qdel] with the keys of the state after the allocation; on the queued objects
         (all below [n], the new one is [n]) they are the keys of the state before it *)
      rewrite (qdel_ext {| pcs := P; objs := O; nobj := n; cur := C; queue := Q; disk := D |}) by
        (intros o A; apply (i_qlt ts _ I) in A; unfold keyof; cbn in *; rewrite upd_other by lia; reflexivity).
      apply inv_pc_same; [|exact Ht|exact Bn|exact Ln].
      apply inv_alloc; [apply inv_qdel; assumption| |exact NK].
      intros o A. apply qdel_in in A. apply A.
  - (* Delete *)
    assert (Bn : batch Done = batch (P t)) by (rewrite Pt; reflexivity).
    assert (Ln : forall all, Done <> FLate all) by discriminate.
    destruct (C k) as [o|] eqn:Ck; [|injection H as <-; apply inv_pc_same; assumption].
    destruct (i_cur ts _ I k o Ck) as [Ko [_ Lo]]. unfold keyof in Ko. cbn in Ko.
    pose proof (inv_unmap P O n C Q D k I) as I1.
    assert (C1 : upd C k None (okey (O o)) = None) by (rewrite Ko; apply upd_same).
    destruct (ofile (O o)); injection H as <-; (apply inv_pc_same; [|exact Ht|exact Bn|exact Ln]).
    + (* on file: the object, no longer current, is queued as a tombstone *)
      apply inv_enqueue; [apply inv_set_obj; [exact I1|reflexivity|unfold keyof; cbn; rewrite C1; discriminate]|exact Lo|right].
      unfold keyof. cbn. rewrite upd_same. exact C1.
    + (* never written: dropped from the queue *)
      exact (inv_qdel P O n (upd C k None) Q D k I1 (upd_same C k None)).
  - (* collect *)
    destruct Q as [|q0 q]; injection H as <-.
    + apply inv_pc_same; [exact I|exact Ht|rewrite Pt; reflexivity|discriminate].
    + apply inv_pc; [exact I|exact Ht| | |discriminate].
      * intros o A. right. exact A.
      * rewrite Pt. intros k o _ [].
  - (* dequeue: a current object that leaves the queue is in the batch of t *)
    injection H as <-. apply inv_pc_same; [|exact Ht|rewrite Pt; reflexivity|discriminate].
    eapply inv_dequeue; [exact I| |].
    + intros o A. apply qminus_in in A. apply A.
    + intros k o Ck A. rewrite qminus_in. destruct (qhas _ _ b) eqn:E; [right|left; auto].
      (* some o2 of t's batch has the key of o, which is current, so o2 is o by [i_bcur] *)
      exists t. rewrite Pt. apply qhas_spec in E as [o2 [B E]]. destruct (i_cur ts _ I k o Ck) as [Ko _].
      assert (F : C (okey (O o2)) = Some o2 \/ C (okey (O o2)) = None)
        by (apply (i_bcur ts _ I t); cbn; rewrite Pt; exact B).
      unfold keyof in E, Ko. cbn in E, Ko. rewrite E, Ko, Ck in F. destruct F as [F|F]; [injection F as <-; exact B|discriminate].
  - (* write *)
    destruct b as [|o r]; injection H as <-.
    + apply inv_pc_same; [exact I|exact Ht|rewrite Pt; reflexivity|discriminate].
    + (* o is written, marked as on file, and leaves the batch *)
      assert (Bo : C (okey (O o)) = Some o \/ C (okey (O o)) = None)
        by (apply (i_bcur ts _ I t); cbn; rewrite Pt; left; reflexivity).
      apply inv_pc; [|exact Ht| | |discriminate].
      * apply inv_set_obj; [apply inv_write; assumption|reflexivity|intros _; split; [reflexivity|left; reflexivity]].
      * rewrite Pt. intros o' A. left. right. exact A.
      * rewrite Pt. intros k o' Ck [<-|A]; [right; right|left; exact A].
        destruct (i_cur ts _ I k o Ck) as [Ko [T _]]. cbn in Ko, T. rewrite <- Ko, !upd_same. cbn. rewrite T. reflexivity.
Qed.

Lemma inv_run sched : forall s, Inv ts s -> no_recreate s ts sched = true -> Inv ts (run false s sched).
Proof.
  induction sched as [|t r IH]; intros s I H; simpl in *; [exact I|].
  apply andb_true_iff in H. destruct H as [H H3]. apply andb_true_iff in H. destruct H as [H1 H2].
  apply negb_true_iff in H2. apply existsb_exists in H1. destruct H1 as [y [Hy E]]. apply Nat.eqb_eq in E. subst y.
  destruct (tstep false s t) eqn:T; [apply IH; [eapply inv_step; eauto|exact H3]|apply IH; assumption].
Qed.

Lemma reach_inv progs sched :
  no_recreate (init progs) ts sched = true -> Inv ts (run false (init progs) sched).
Proof. apply inv_run, inv_init. Qed.
End Step.

Lemma inv_quiescent ts s k v :
  Inv ts s -> queue s = [] -> (forall t, batch (pcs s t) = []) -> memval s k = Some v -> disk s k = Some v.
Proof.
  intros I Hq Hb Hm. unfold memval in Hm. destruct (cur s k) as [o|] eqn:C; [|discriminate]. injection Hm as <-.
  destruct (i_main ts s I k o C) as [A|[[x A]|A]]; [rewrite Hq in A; destruct A|rewrite Hb in A; destruct A|exact A].
Qed.

(* A flusher that runs alone: what it has collected is the whole queue, and nothing is queued
   once it has dequeued; [togo] bounds the steps it still makes. *)
Definition solo (p : pc) (q : list nat) : Prop :=
  match p with FColl => True | FDeq b => b = q | FWrite _ _ | Done => q = [] | _ => False end.
Definition togo (p : pc) (q : list nat) : nat :=
  match p with FColl => 3 + length q | FDeq b => 2 + length b | FWrite r _ => 1 + length r | _ => 0 end.

Lemma solo_step s t : solo (pcs s t) (queue s) ->
  match tstep false s t with
  | Some s' => exists p, pcs s' = upd (pcs s) t p /\ solo p (queue s') /\
                         togo p (queue s') < togo (pcs s t) (queue s)
  | None => togo (pcs s t) (queue s) = 0
  end.
Proof.
  unfold tstep.
  destruct (pcs s t) as [| k v th | k | | b | b all | all |]; cbn; intro J; try contradiction.
  - destruct (queue s) eqn:Q; eexists; (split; [reflexivity|]); cbn; rewrite Q; (split; [reflexivity|cbn; lia]).
  - subst b. eexists. split; [reflexivity|]. cbn. split; [apply qminus_self|lia].
  - destruct b; eexists; (split; [reflexivity|]); cbn; (split; [exact J|lia]).
  - reflexivity.
Qed.

Lemma solo_run ts t : In t ts -> forall n s,
  Inv ts s -> solo (pcs s t) (queue s) -> togo (pcs s t) (queue s) <= n ->
  let s' := run false s (repeat t n) in
  Inv ts s' /\ pcs s' t = Done /\ queue s' = [] /\ forall x, x <> t -> pcs s' x = pcs s x.
Proof.
  intro Ht. induction n as [|n IH]; intros s Hi J L; cbv zeta.
  - cbn [repeat run]. destruct (pcs s t); cbn in J, L; try contradiction; try lia. auto.
  - cbn [repeat run].
    pose proof (solo_step s t J) as St. destruct (tstep false s t) as [s1|] eqn:E.
    + destruct St as [p [Ep [J1 L1]]].
      assert (P1 : pcs s1 t = p) by (rewrite Ep; apply upd_same).
      destruct (IH s1) as [A [B [C D]]].
      * apply (inv_step ts s t s1 Hi Ht); [|exact E].
        revert J. unfold recreates. destruct (pcs s t); try reflexivity. intros [].
      * rewrite P1. exact J1.
      * rewrite P1. lia.
      * split; [exact A|]. split; [exact B|]. split; [exact C|]. intros x Hx. rewrite D by exact Hx. rewrite Ep. apply upd_other, Hx.
    + apply IH; [exact Hi|exact J|lia].
Qed.

Lemma close_write_durable ts s t k v :
  Inv ts s -> In t ts -> pcs s t = FColl -> (forall x, x <> t -> batch (pcs s x) = []) ->
  let s' := run false s (repeat t (3 + length (queue s))) in
  memval s' k = Some v -> disk s' k = Some v.
Proof.
  intros Hi Ht P Hb s'.
  destruct (solo_run ts t Ht (3 + length (queue s)) s Hi) as [I' [A [B D]]];
    [rewrite P; exact Logic.I|rewrite P; apply le_n|]. fold s' in I', A, B, D.
  apply (inv_quiescent ts s' k v I' B).
  intro x. destruct (Nat.eq_dec x t) as [->|Hx]; [rewrite A; reflexivity|].
  rewrite D by exact Hx. apply Hb, Hx.
Qed.

(* the schedule of C16_late_dequeue_refuted with the dequeue before the write (late = false): nothing is lost *)
Example early_dequeue_keeps_update :
  let s := run false (init (progs_of w_late_progs)) w_late in
  memval s 0 = Some 2 /\ disk s 0 = Some 2 /\ queue s = [] /\
  no_recreate (init (progs_of w_late_progs)) [0;1;2;3] w_late = true.
Proof. vm_compute. auto. Qed.

(* the close-write is needed even while another flush is running: that flush only writes what it
   collected. 0 saves k0=1; 1 = write tick, parked after its dequeue; 2 saves k1=2; if Close()
   skips its own flush ("a writer is active") and the tick then finishes, k1 is still queued in
   an instance that is gone; with the close-write (thread 3) it is durable *)
Example close_write_skipped_loses_queued_save :
  let progs := progs_of [PSave 0 1 false; PFlush; PSave 1 2 false; PFlush] in
  let skipped := run false (init progs) [0; 1;1; 2; 1;1;1] in
  let closed := run false (init progs) [0; 1;1; 2; 3;3;3;3; 1;1;1] in
  memval skipped 1 = Some 2 /\ disk skipped 1 = None /\ length (queue skipped) = 1 /\
  memval closed 1 = Some 2 /\ disk closed 1 = Some 2 /\ disk closed 0 = Some 1 /\ queue closed = [] /\
  no_recreate (init progs) [0;1;2;3] [0; 1;1; 2; 3;3;3;3; 1;1;1] = true.
Proof. vm_compute. repeat split; reflexivity. Qed.
