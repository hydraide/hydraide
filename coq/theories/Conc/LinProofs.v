(* Conc/LinProofs.v — C09: every schedule of any number of guarded read-modify-write threads
   over one record is a serial execution in the order of the write steps (which lie between
   invocation and response), for both write modes, from the C15 guard invariant. Then, for the
   key-value instance of Conc/Lin.v: increments add up modulo 2^64 ([wrap64_add], [zsum],
   [inc_run], [incs_add]), two oracle clauses of the harness that follow from the sequential
   meaning ([incif_rejected_no_change], [seq_step_not_void]), and three evaluated schedules. *)
From HV Require Import Base.Prelude Conc.Guard Conc.GuardProofs Conc.Lin.
From Coq Require Import Sorted Permutation.

Lemma upd_nth_length {A} (l : list A) n x : length (upd_nth n x l) = length l.
Proof. revert n; induction l as [|a t IH]; intros [|n]; simpl; auto. Qed.

Lemma nth_error_upd {A} (l : list A) n x m :
  nth_error (upd_nth n x l) m =
  if Nat.eqb n m then option_map (fun _ => x) (nth_error l m) else nth_error l m.
Proof.
  revert n m; induction l as [|a t IH]; intros [|n] [|m]; simpl; auto.
  destruct (Nat.eqb n m); reflexivity.
Qed.

Lemma map_upd_nth_same {A B} (f : A -> B) {l : list A} {n} x {y} :
  nth_error l n = Some y -> f x = f y -> map f (upd_nth n x l) = map f l.
Proof.
  revert n; induction l as [|a t IH]; intros [|n] H E; simpl in *; try discriminate; auto.
  - inversion H; subst. rewrite E. reflexivity.
  - f_equal. eapply IH; eauto.
Qed.

Lemma map_inj {A B} (f : A -> B) :
  (forall x y, f x = f y -> x = y) -> forall l l', map f l = map f l' -> l = l'.
Proof. intros Hf l. induction l as [|a t IH]; intros [|b t'] E; inversion E; f_equal; auto. Qed.

Lemma map_nth_error_seq {A B} (g : option A -> B) (l : list A) :
  map (fun c => g (nth_error l c)) (seq 0 (length l)) = map (fun x => g (Some x)) l.
Proof.
  induction l as [|a t IH]; simpl; [reflexivity|]. f_equal.
  rewrite <- seq_shift, map_map. simpl. exact IH.
Qed.

(* What a guard step of one client leaves to the others, for any id policy: the thread
   invariants below are carried over other threads' steps with these. *)
Definition ev_client (e : ev) : client :=
  match e with EStartW c | EReturn c | EStartN c | ERelease c _ => c end.

Lemma step_frame reset s e s' :
  step reset s e = Some s' ->
  incl (ret s) (ret s') /\
  forall c i, ev_client e <> c -> In (c, i) (held s) -> In (c, i) (held s').
Proof.
  intro H. destruct e as [c0|c0|c0|c0 id]; simpl in H.
  - destruct (lookup_client c0 (pend s)); [discriminate|]. injection H as <-; simpl.
    split; [apply incl_refl|auto].
  - destruct (lookup_client c0 (pend s)) as [id|]; [|discriminate].
    destruct (g_head (g s)) as [h|]; [|discriminate]. destruct (Z.eqb id h); [|discriminate].
    injection H as <-; simpl. split; [apply incl_appl, incl_refl|]. intros. apply in_or_app. auto.
  - destruct (queue (g s)); injection H as <-; simpl.
    + split; [apply incl_appl, incl_refl|]. intros. apply in_or_app. auto.
    + split; [apply incl_refl|auto].
  - injection H as <-; simpl. split; [apply incl_refl|].
    intros c i Hne Hi. apply remove_first_other; [exact Hi|congruence].
Qed.

Lemma return_gives reset s c id s' :
  lookup_client c (pend s) = Some id -> step reset s (EReturn c) = Some s' ->
  In (c, id) (held s').
Proof.
  intros El H. simpl in H. rewrite El in H.
  destruct (g_head (g s)) as [h|]; [|discriminate]. destruct (Z.eqb id h); [|discriminate].
  injection H as <-; simpl. apply in_app_iff. right. left. reflexivity.
Qed.

Section ProtocolProofs.
Variables (St Op Rs : Type).
Variable sem : St -> Op -> St * Rs.

Notation world := (world St Op Rs).
Notation thread := (thread St Op Rs).
Notation lentry := (lentry St Op Rs).

Definition clients (log : list lentry) : list nat := map l_c log.
Definition times (log : list lentry) : list nat := map l_time log.

(* the sections of the log form a chain: each one read the state its predecessor wrote *)
Fixpoint chain_ok (s : St) (log : list lentry) : Prop :=
  match log with
  | [] => True
  | e :: t => l_read e = s /\ sem (l_read e) (l_op e) = (l_write e, l_resp e) /\ chain_ok (l_write e) t
  end.

Fixpoint last_state (s : St) (log : list lentry) : St :=
  match log with [] => s | e :: t => last_state (l_write e) t end.

Definition in_section (p : pc St Rs) : bool :=
  match p with PIn _ | PRead _ _ => true | _ => false end.

Lemma chain_ok_app s log e :
  chain_ok s log -> l_read e = last_state s log -> sem (l_read e) (l_op e) = (l_write e, l_resp e) ->
  chain_ok s (log ++ [e]).
Proof.
  revert s; induction log as [|a t IH]; simpl; intros s Hc Hr Hs.
  - auto.
  - destruct Hc as [H1 [H2 H3]]. repeat split; auto.
Qed.

Lemma last_state_app s log e : last_state s (log ++ [e]) = l_write e.
Proof. revert s; induction log as [|a t IH]; simpl; intros s; auto. Qed.

Lemma chain_sem_run s log :
  chain_ok s log -> sem_run sem s (map l_op log) = (last_state s log, map l_resp log).
Proof.
  revert s; induction log as [|e t IH]; simpl; intros s Hc; [reflexivity|].
  destruct Hc as [H1 [H2 H3]]. subst s. rewrite H2. simpl. rewrite (IH _ H3). reflexivity.
Qed.

(* thread c has written: the log has a section of c, and every section of c in it carries
   c's operation, the response rs, and a time after c's invocation *)
Definition logged (w : world) (c : nat) (t : thread) (rs : Rs) : Prop :=
  In c (clients (w_log w)) /\
  forall e, In e (w_log w) -> l_c e = c -> l_op e = t_op t /\ l_resp e = rs /\ t_inv t < l_time e.

Definition TInv (w : world) (c : nat) (t : thread) : Prop :=
  match t_pc t with
  | PInit => ~ In c (clients (w_log w))
  | PWait => ~ In c (clients (w_log w)) /\ t_inv t < w_now w
  | PIn id => In (c, id) (held (w_g w)) /\ ~ In c (clients (w_log w)) /\ t_inv t < w_now w
  | PRead id r => In (c, id) (held (w_g w)) /\ r = w_val w /\ ~ In c (clients (w_log w)) /\ t_inv t < w_now w
  | PWritten id rs | PSaved id rs => In (c, id) (ret (w_g w)) /\ logged w c t rs
  | PDone rs => (forall e, In e (w_log w) -> l_c e = c -> l_time e < t_ret t) /\ logged w c t rs
  end.

Record WInv {s0 : St} {prog : list (Op * bool)} {w : world} : Prop := {
  W_g : Lineup (w_g w);
  W_prog : map (fun t => (t_op t, t_imm t)) (w_thr w) = prog;
  W_thr : forall c t, nth_error (w_thr w) c = Some t -> TInv w c t;
  W_dom : forall c, In c (clients (w_log w)) -> c < length (w_thr w);
  W_nd : NoDup (clients (w_log w));
  W_sorted : StronglySorted lt (times (w_log w));
  W_time : Forall (fun e => l_time e < w_now w) (w_log w);
  W_chain : chain_ok s0 (w_log w);
  W_last : last_state s0 (w_log w) = w_val w
}.
Arguments WInv : clear implicits.

Lemma tinv_section {w c t} :
  TInv w c t -> in_section (t_pc t) = true -> exists id, In (c, id) (held (w_g w)).
Proof.
  unfold TInv. destruct (t_pc t) as [| |id|id r|id rs|id rs|rs]; try discriminate;
    intros H _; exists id; apply H.
Qed.

Lemma tinv_written {w c t} :
  TInv w c t -> In c (clients (w_log w)) <-> past_write (t_pc t) = true.
Proof.
  unfold TInv. intro H. split.
  - destruct (t_pc t); simpl; tauto.
  - destruct (t_pc t) as [| |id|id r|id rs|id rs|rs]; try discriminate; intros _; apply H.
Qed.

Lemma tinv_frame (w w' : world) c' t :
  TInv w c' t ->
  incl (ret (w_g w)) (ret (w_g w')) ->
  (forall i, In (c', i) (held (w_g w)) -> In (c', i) (held (w_g w')) /\ w_val w' = w_val w) ->
  incl (w_log w) (w_log w') ->
  (forall e, In e (w_log w') -> l_c e = c' -> In e (w_log w)) ->
  w_now w <= w_now w' ->
  TInv w' c' t.
Proof.
  intros HT Hret Hheld Hlog Hback Hnow.
  assert (Hn : ~ In c' (clients (w_log w)) -> ~ In c' (clients (w_log w'))).
  { intros Hn Hi. apply in_map_iff in Hi as [e [E Hi]]. apply Hn.
    rewrite <- E. apply in_map, Hback; [exact Hi|exact E]. }
  assert (Hl : forall rs, logged w c' t rs -> logged w' c' t rs).
  { intros rs [Hi Hall]. split; [exact (incl_map l_c Hlog _ Hi)|].
    intros e He Ec. apply Hall; [apply Hback|]; assumption. }
  unfold TInv in *. destruct (t_pc t) as [| |id|id r|id rs|id rs|rs].
  - auto.
  - destruct HT as [H1 H2]. split; [auto|lia].
  - destruct HT as [H1 [H2 H3]]. repeat split; [apply Hheld, H1|auto|lia].
  - destruct HT as [H1 [H2 [H3 H4]]]. destruct (Hheld _ H1) as [H1' Hv].
    repeat split; [exact H1'|congruence|auto|lia].
  - destruct HT as [H1 H2]. split; auto.
  - destruct HT as [H1 H2]. split; auto.
  - destruct HT as [H1 H2]. split; [|auto].
    intros e He Ec. apply H1; [apply Hback|]; assumption.
Qed.

Lemma upd_nth_all (P : nat -> thread -> Prop) {l : list thread} {c t t'} :
  nth_error l c = Some t -> P c t' ->
  (forall c' t0, c <> c' -> nth_error l c' = Some t0 -> P c' t0) ->
  forall c' t0, nth_error (upd_nth c t' l) c' = Some t0 -> P c' t0.
Proof.
  intros Hc Ht Hother c' t0 Hn. rewrite nth_error_upd in Hn.
  destruct (Nat.eqb_spec c c') as [<-|Hne].
  - rewrite Hc in Hn. injection Hn as <-. exact Ht.
  - exact (Hother _ _ Hne Hn).
Qed.

(* every step but the write: thread c moves on, the guard stays or takes an event of client c *)
Lemma winv_move s0 prog (w : world) c t g' p i r :
  let t' := {| t_op := t_op t; t_imm := t_imm t; t_pc := p; t_inv := i; t_ret := r |} in
  let w' := put w c g' (w_val w) (w_log w) t' in
  WInv s0 prog w -> nth_error (w_thr w) c = Some t ->
  Lineup g' ->
  incl (ret (w_g w)) (ret g') ->
  (forall c' id, c <> c' -> In (c', id) (held (w_g w)) -> In (c', id) (held g')) ->
  TInv w' c t' ->
  WInv s0 prog w'.
Proof.
  intros t' w' I Hc Lg Hret Hheld HT. constructor; simpl.
  - exact Lg.
  - rewrite (map_upd_nth_same _ _ Hc); [exact (W_prog I)|reflexivity].
  - apply (upd_nth_all (TInv w') Hc HT). intros c' t0 Hne Hn.
    apply (tinv_frame w); simpl; [apply (W_thr I), Hn|exact Hret| |apply incl_refl|auto|lia].
    intros id Hi. split; [apply Hheld; assumption|reflexivity].
  - rewrite upd_nth_length. exact (W_dom I).
  - (* the log and the record are untouched *) exact (W_nd I).
  - exact (W_sorted I).
  - eapply Forall_impl; [|apply (W_time I)]. simpl; intros; lia.
  - exact (W_chain I).
  - exact (W_last I).
Qed.

Lemma winv_gstep s0 prog (w : world) c t e g' p i r :
  let t' := {| t_op := t_op t; t_imm := t_imm t; t_pc := p; t_inv := i; t_ret := r |} in
  let w' := put w c g' (w_val w) (w_log w) t' in
  WInv s0 prog w -> nth_error (w_thr w) c = Some t ->
  step false (w_g w) e = Some g' -> ev_client e = c -> own_release (w_g w) e = true ->
  TInv w' c t' ->
  WInv s0 prog w'.
Proof.
  intros t' w' I Hc Hs <- Ho. destruct (step_frame _ _ _ _ Hs) as [Hr Hh].
  apply winv_move; [exact I|exact Hc| |exact Hr|exact Hh].
  eapply lineup_step; [exact (W_g I)|exact Ho|exact Hs].
Qed.

(* the write: the section is logged; c holds the guard, so nobody else is in a section *)
Lemma winv_write s0 prog (w : world) c t id r :
  let e := {| l_c := c; l_op := t_op t; l_read := r; l_write := fst (sem r (t_op t));
              l_resp := snd (sem r (t_op t)); l_time := w_now w |} in
  WInv s0 prog w -> nth_error (w_thr w) c = Some t -> t_pc t = PRead id r ->
  WInv s0 prog (put w c (w_g w) (l_write e) (w_log w ++ [e]) (set_pc t (PWritten id (l_resp e)))).
Proof.
  intros e I Hc Hpc. pose proof (W_thr I _ _ Hc) as HT. unfold TInv in HT. rewrite Hpc in HT.
  destruct HT as [H1 [-> [H3 H4]]].
  assert (Hin : forall e', In e' (w_log w ++ [e]) -> In e' (w_log w) \/ e' = e).
  { intros e' He. apply in_app_or in He as [He|[<-|[]]]; auto. }
  constructor; simpl.
  - exact (W_g I).
  - rewrite (map_upd_nth_same _ _ Hc); [exact (W_prog I)|reflexivity].
  - apply (upd_nth_all (TInv _) Hc).
    + unfold TInv, logged; simpl. split; [apply (L_held _ (W_g I)), H1|]. split.
      * unfold clients. rewrite map_app. apply in_or_app. right. left. reflexivity.
      * intros e' He Ec. destruct (Hin _ He) as [He' | ->]; [|simpl; auto].
        exfalso. apply H3. rewrite <- Ec. apply in_map, He'.
    + intros c' t0 Hne Hn.
      apply (tinv_frame w); simpl;
        [apply (W_thr I), Hn|apply incl_refl| |apply incl_appl, incl_refl| |lia].
      * intros i Hi. pose proof (held_at_most_one _ (W_g I) _ _ H1 Hi) as E. congruence.
      * intros e' He Ec. destruct (Hin _ He) as [He' | ->]; [exact He'|]. simpl in Ec. congruence.
  - rewrite upd_nth_length. intros c' Hi. unfold clients in Hi. rewrite map_app in Hi.
    apply in_app_or in Hi as [Hi|[<-|[]]]; [apply (W_dom I), Hi|].
    apply nth_error_Some. simpl. congruence.
  - unfold clients. rewrite map_app. apply (Permutation_NoDup (Permutation_cons_append _ c)).
    constructor; [exact H3|exact (W_nd I)].
  - unfold times. rewrite map_app. apply ss_snoc; [exact (W_sorted I)|]. apply Forall_map, (W_time I).
  - apply Forall_app. split; [|repeat constructor].
    eapply Forall_impl; [|apply (W_time I)]. simpl; intros; lia.
  - apply chain_ok_app; [exact (W_chain I)|symmetry; exact (W_last I)|apply surjective_pairing].
  - apply last_state_app.
Qed.

Lemma winv_step s0 prog (w : world) c w' :
  WInv s0 prog w -> tstep sem false w c = Some w' -> WInv s0 prog w'.
Proof.
  intros I H. unfold tstep in H.
  destruct (nth_error (w_thr w) c) as [t|] eqn:Hc; [|discriminate].
  pose proof (W_thr I _ _ Hc) as HT. unfold TInv in HT.
  destruct (t_pc t) as [| |id|id r|id rs|id rs|rs] eqn:Hpc.
  - (* PInit: enqueue *)
    destruct (step false (w_g w) (EStartW c)) as [g'|] eqn:Hs; [|discriminate]. injection H as <-.
    eapply winv_gstep; [exact I|exact Hc|exact Hs|reflexivity|reflexivity|].
    unfold TInv; simpl. split; [exact HT|lia].
  - (* PWait: the blocked start returns *)
    destruct (lookup_client c (pend (w_g w))) as [id|] eqn:El; [|discriminate].
    destruct (step false (w_g w) (EReturn c)) as [g'|] eqn:Hs; [|discriminate]. injection H as <-.
    eapply winv_gstep; [exact I|exact Hc|exact Hs|reflexivity|reflexivity|].
    unfold TInv; simpl. repeat split; [exact (return_gives _ _ _ _ _ El Hs)|apply HT|lia].
  - (* PIn: read the record *)
    injection H as <-. apply winv_move; [exact I|exact Hc|exact (W_g I)|apply incl_refl|auto|].
    unfold TInv; simpl. repeat split; [apply HT..|lia].
  - (* PRead: write the record *)
    injection H as <-. apply winv_write; assumption.
  - (* PWritten: Save (immediate mode releases the guard here) *)
    destruct HT as [H1 H2]. destruct (t_imm t).
    + destruct (step false (w_g w) (ERelease c id)) as [g'|] eqn:Hs; [|discriminate]. injection H as <-.
      eapply winv_gstep; [exact I|exact Hc|exact Hs|reflexivity|apply mem_pair_in, H1|].
      unfold TInv; simpl. split; [apply (step_frame _ _ _ _ Hs), H1|exact H2].
    + injection H as <-. apply winv_move; [exact I|exact Hc|exact (W_g I)|apply incl_refl|auto|].
      unfold TInv; simpl. split; [exact H1|exact H2].
  - (* PSaved: the caller's (possibly second) release *)
    destruct HT as [H1 H2].
    destruct (step false (w_g w) (ERelease c id)) as [g'|] eqn:Hs; [|discriminate]. injection H as <-.
    eapply winv_gstep; [exact I|exact Hc|exact Hs|reflexivity|apply mem_pair_in, H1|].
    unfold TInv; simpl. split; [|exact H2]. intros e He _.
    pose proof (W_time I) as Hf. rewrite Forall_forall in Hf. apply Hf, He.
  - discriminate.
Qed.

Lemma winv_init s0 prog : WInv s0 prog (winit St Op Rs s0 prog).
Proof.
  constructor; simpl.
  - apply lineup_init.
  - rewrite map_map. rewrite <- (map_id prog) at 2. apply map_ext. intros [o b]. reflexivity.
  - intros c t Hn. apply nth_error_In in Hn. apply in_map_iff in Hn as [p [<- _]].
    unfold TInv; simpl. tauto.
  - intros c [].
  - constructor.
  - constructor.
  - constructor.
  - exact Logic.I.
  - reflexivity.
Qed.

Lemma winv_run s0 prog sched : forall w, WInv s0 prog w -> WInv s0 prog (wrun sem false w sched).
Proof.
  induction sched as [|c t IH]; simpl; intros w I; [exact I|].
  destruct (tstep sem false w c) as [w'|] eqn:E; [|apply IH; exact I].
  apply IH. eapply winv_step; eassumption.
Qed.

Lemma winv_reach s0 prog sched : WInv s0 prog (wrun sem false (winit St Op Rs s0 prog) sched).
Proof. apply winv_run, winv_init. Qed.

Lemma log_thread {s0 prog} {w : world} {e} :
  WInv s0 prog w -> In e (w_log w) ->
  exists t, nth_error (w_thr w) (l_c e) = Some t /\ past_write (t_pc t) = true /\
            l_op e = t_op t /\ t_inv t < l_time e.
Proof.
  intros I He. assert (Hc : In (l_c e) (clients (w_log w))) by apply in_map, He.
  destruct (nth_error (w_thr w) (l_c e)) as [t|] eqn:Hn.
  2:{ apply (W_dom I), nth_error_Some in Hc. contradiction. }
  pose proof (W_thr I _ _ Hn) as T. exists t.
  split; [reflexivity|]. split; [apply (tinv_written T), Hc|].
  unfold TInv in T. destruct (t_pc t) as [| |id|id r|id rs|id rs|rs]; try tauto.
  all: destruct T as [_ [_ H]]; apply (H e) in He; tauto.
Qed.

(* C09's guarded_section_atomic, for any state, operation and response types *)
Theorem guarded_section_atomic_gen s0 prog sched :
  let w := wrun sem false (winit St Op Rs s0 prog) sched in
  chain_ok s0 (w_log w) /\ last_state s0 (w_log w) = w_val w /\
  StronglySorted lt (times (w_log w)) /\
  (forall c1 c2 t1 t2, nth_error (w_thr w) c1 = Some t1 -> nth_error (w_thr w) c2 = Some t2 ->
     in_section (t_pc t1) = true -> in_section (t_pc t2) = true -> c1 = c2) /\
  (forall c t id r, nth_error (w_thr w) c = Some t -> t_pc t = PRead id r -> r = w_val w).
Proof.
  intros w. pose proof (winv_reach s0 prog sched) as I. fold w in I.
  split; [exact (W_chain I)|]. split; [exact (W_last I)|]. split; [exact (W_sorted I)|]. split.
  - intros c1 c2 t1 t2 H1 H2 S1 S2.
    destruct (tinv_section (W_thr I _ _ H1) S1) as [i1 X1].
    destruct (tinv_section (W_thr I _ _ H2) S2) as [i2 X2].
    pose proof (held_at_most_one _ (W_g I) _ _ X1 X2) as E. congruence.
  - intros c t id r Hn Hp. pose proof (W_thr I _ _ Hn) as T. unfold TInv in T.
    rewrite Hp in T. apply T.
Qed.

(* C09_linearizable, likewise *)
Theorem linearizable_gen s0 prog sched :
  let w := wrun sem false (winit St Op Rs s0 prog) sched in
  sem_run sem s0 (map l_op (w_log w)) = (w_val w, map l_resp (w_log w)) /\
  NoDup (clients (w_log w)) /\
  (forall c, In c (clients (w_log w)) <->
             exists t, nth_error (w_thr w) c = Some t /\ past_write (t_pc t) = true) /\
  (forall c t rs, nth_error (w_thr w) c = Some t -> t_pc t = PDone rs ->
     exists e, In e (w_log w) /\ l_c e = c /\ Some (l_op e) = option_map fst (nth_error prog c) /\ l_resp e = rs) /\
  StronglySorted lt (times (w_log w)) /\
  (forall ea eb ta tb, In ea (w_log w) -> In eb (w_log w) ->
     nth_error (w_thr w) (l_c ea) = Some ta -> nth_error (w_thr w) (l_c eb) = Some tb ->
     is_done (t_pc ta) = true -> t_ret ta < t_inv tb -> l_time ea < l_time eb).
Proof.
  intros w. pose proof (winv_reach s0 prog sched) as I. fold w in I.
  split. { rewrite (chain_sem_run _ _ (W_chain I)), (W_last I). reflexivity. }
  split. { exact (W_nd I). }
  split.
  { intros c. split.
    - intros Hi. apply in_map_iff in Hi as [e [<- Hi]].
      destruct (log_thread I Hi) as [t [Hn [Hp _]]]. eauto.
    - intros [t [Hn Hp]]. apply (tinv_written (W_thr I _ _ Hn)), Hp. }
  split.
  { intros c t rs Hn Hp. pose proof (W_thr I _ _ Hn) as T. unfold TInv in T. rewrite Hp in T.
    destruct T as [_ [Hc Hall]]. apply in_map_iff in Hc as [e [Ec He]]. exists e.
    destruct (Hall e He Ec) as [Eo [Er _]].
    rewrite <- (W_prog I), nth_error_map, Hn, Eo. auto. }
  split. { exact (W_sorted I). }
  intros ea eb ta tb Ha Hb Hta Htb Hd Hlt.
  assert (A : l_time ea < t_ret ta).
  { pose proof (W_thr I _ _ Hta) as T. unfold TInv in T.
    destruct (t_pc ta); try discriminate. apply T; [exact Ha|reflexivity]. }
  destruct (log_thread I Hb) as [t [Hn [_ [_ B]]]].
  rewrite Htb in Hn. inversion Hn; subst t. lia.
Qed.

Theorem all_done_ops s0 prog sched :
  let w := wrun sem false (winit St Op Rs s0 prog) sched in
  all_done w = true -> Permutation (map l_op (w_log w)) (map fst prog).
Proof.
  intros w Hd. pose proof (winv_reach s0 prog sched) as I. fold w in I.
  assert (P : Permutation (clients (w_log w)) (seq 0 (length (w_thr w)))).
  { apply NoDup_Permutation; [exact (W_nd I)|apply seq_NoDup|].
    intros c. rewrite in_seq. split; [intros Hi; apply (W_dom I) in Hi; lia|].
    intros [_ Hlt]. apply nth_error_Some in Hlt.
    destruct (nth_error (w_thr w) c) as [t|] eqn:Hn; [|contradiction].
    apply (tinv_written (W_thr I _ _ Hn)).
    unfold all_done in Hd. rewrite forallb_forall in Hd.
    pose proof (Hd t (nth_error_In _ _ Hn)) as Hdt. destruct (t_pc t); try discriminate. reflexivity. }
  (* section by section, the operation is that of the thread that wrote it *)
  apply (Permutation_map (fun c => option_map t_op (nth_error (w_thr w) c))) in P.
  rewrite map_nth_error_seq in P. simpl in P. rewrite <- (map_map t_op Some) in P.
  replace (map _ (clients (w_log w))) with (map Some (map l_op (w_log w))) in P.
  - symmetry in P. apply Permutation_map_inv in P as [l [E P]].
    apply map_inj in E; [subst l|congruence].
    rewrite <- (W_prog I), map_map. exact P.
  - unfold clients. rewrite !map_map. apply map_ext_in. intros e He.
    destruct (log_thread I He) as [t [Hn [_ [Eo _]]]]. rewrite Hn, Eo. reflexivity.
Qed.

End ProtocolProofs.

(* the two theorems at the key-value instance, as Props/C09.v states them *)
Definition guarded_section_atomic := guarded_section_atomic_gen kst op resp seq_step.
Definition linearizable := linearizable_gen kst op resp seq_step.

Local Open Scope Z_scope.

Lemma wrap64_add a d : wrap64 (wrap64 a + d) = wrap64 (a + d).
Proof.
  unfold wrap64.
  set (M := 18446744073709551616). set (H := 9223372036854775808).
  assert (E: (a + H) mod M - H + d + H = (a + H) mod M + d).
  { generalize ((a + H) mod M). intro z. lia. }
  rewrite E. rewrite Zplus_mod_idemp_l. f_equal. f_equal. lia.
Qed.

Lemma wrap64_idem a : wrap64 (wrap64 a) = wrap64 a.
Proof. pose proof (wrap64_add a 0) as E. rewrite !Z.add_0_r in E. exact E. Qed.

Lemma wrap64_small v : -9223372036854775808 <= v < 9223372036854775808 -> wrap64 v = v.
Proof. intro H. unfold wrap64. rewrite Z.mod_small by lia. lia. Qed.

(* oracle clauses of the harness that follow from the sequential meaning: a rejected
   conditional increment changes nothing *)
Lemma incif_rejected_no_change s c cv d s' v :
  seq_step s (OIncIf c cv d) = (s', RIncNo v) -> s' = s.
Proof.
  simpl. destruct s as [[z|z|]|]; try (destruct (cond_holds c cv _)); intro H; inversion H; reflexivity.
Qed.

(* the final-state clause of the harness: no operation of the alphabet stores a void record, so a
   serial execution that starts without one never ends with one *)
Lemma seq_step_not_void s o : s <> Some VV -> o <> OSet VV -> fst (seq_step s o) <> Some VV.
Proof.
  intros H Ho. destruct o as [v|d|c cv d|thr| | |cr d| ]; simpl; try discriminate; try exact H.
  - congruence.
  - destruct s as [[z|z|]|]; simpl; congruence.
  - destruct s as [[z|z|]|]; try destruct (cond_holds c cv _); simpl; congruence.
  - destruct (shiftm_match thr s); simpl; congruence.
  - destruct s as [[z|z|]|]; try destruct cr; simpl; congruence.
Qed.

Definition zsum (l : list Z) : Z := fold_right Z.add 0 l.

Lemma zsum_perm l l' : Permutation l l' -> zsum l = zsum l'.
Proof. induction 1; simpl; lia. Qed.

Lemma zsum_const {A} (l : list A) z : zsum (map (fun _ => z) l) = Z.of_nat (length l) * z.
Proof.
  induction l as [|a t IH]; [reflexivity|].
  cbn [map zsum fold_right length]. fold (zsum (map (fun _ => z) t)). rewrite IH. lia.
Qed.

Lemma inc_run ds : forall v, wrap64 v = v ->
  fst (sem_run seq_step (Some (VI v)) (map OInc ds)) = Some (VI (wrap64 (v + zsum ds))).
Proof.
  induction ds as [|d t IH]; intros v Hv; simpl.
  - rewrite Z.add_0_r, Hv. reflexivity.
  - rewrite IH.
    + rewrite wrap64_add. do 3 f_equal. lia.
    + apply wrap64_idem.
Qed.

(* C09_no_lost_update for any program whose operations are increments *)
Theorem incs_add v0 prog ds sched :
  let w := krun false (kinit (Some (VI v0)) prog) sched in
  wrap64 v0 = v0 -> map fst prog = map OInc ds -> all_done w = true ->
  w_val w = Some (VI (wrap64 (v0 + zsum ds))) /\ length (w_log w) = length ds.
Proof.
  intros w Hv Ep Hd. subst w. unfold krun, kinit in *.
  (* the log is a serial run of the deltas in some order *)
  pose proof (all_done_ops _ _ _ _ _ _ _ Hd) as P.
  rewrite Ep in P. apply Permutation_map_inv in P as [ds' [E P]].
  destruct (linearizable_gen _ _ _ seq_step (Some (VI v0)) prog sched) as [Hrun _]. rewrite E in Hrun.
  split.
  - rewrite (zsum_perm _ _ P), <- inc_run, Hrun by exact Hv. reflexivity.
  - rewrite <- (map_length l_op), E, map_length. symmetry. apply Permutation_length, P.
Qed.

(* [lost_update_prog] under [lost_update_sched] of Conc/Lin.v, which lose an update when ids
   restart (refuted in Props/C09.v), with monotone ids ([reset = false]): the third thread stays
   blocked behind the second, which then writes 2; letting everybody finish gives 3 *)
Example monotone_ids_ok :
  let w := krun false (kinit (Some (VI 0)) lost_update_prog) (lost_update_sched ++ [2;2;2;2;2;2]%nat) in
  all_done w = true /\ w_val w = Some (VI 3) /\ map l_resp (w_log w) = [RInc 1; RInc 2; RInc 3].
Proof. vm_compute. repeat split; reflexivity. Qed.

(* non-vacuity of the general theorems: mixed operations, both modes, an interleaved schedule
   in which everybody finishes; the log is a serial execution with the observed responses *)
Definition mixed_prog : list (op * bool) :=
  [(OSet (VI 5), true); (OInc 2, false); (OPatch true 1, true); (OInc (-3), true); (OGet, false)].
Definition mixed_sched : list nat :=
  [0;1;2;3;4; 0;1;2;0;0;3;0;0; 4;1;1;1;1;1; 2;2;2;2;2; 3;3;3;3;3;3; 4;4;4;4;4;4]%nat.
Example mixed_nonvacuous :
  let w := krun false (kinit None mixed_prog) mixed_sched in
  all_done w = true /\ w_val w = Some (VI 4) /\
  map l_c (w_log w) = [0;1;2;3;4]%nat /\
  map l_resp (w_log w) = [RSet true; RInc 7; RPatch 5; RInc 4; RGet (Some (VI 4))].
Proof. vm_compute. repeat split; reflexivity. Qed.

(* the protocol theorems are parametric in the read-modify-write function: a concrete
   schedule with conditional increments and a matching shift *)
Example mixed2_nonvacuous :
  let prog := [(OIncIf 0 5 1, true); (OSet (VI 70), false); (OShiftM 50, true); (OIncIf 1 10 2, false)] in
  let w := krun false (kinit None prog) [0;1;3;2; 0;0;0;0;0; 1;1;1;1;1; 3;3;3;3;3; 2;2;2;2;2]%nat in
  all_done w = true /\ w_val w = None /\
  map l_resp (w_log w) = [RIncNo 0; RSet true; RInc 72; RShiftM (Some (VI 72))].
Proof. vm_compute. repeat split; reflexivity. Qed.
