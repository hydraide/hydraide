(* Invariant of the vigil protocol with the decrement under the waiter's mutex, for all schedules;
   from it no stuck waiter and a termination measure. [lost_wakeup_schedule] sticks a waiter when
   the decrement is not under the mutex. Then the counter balance of the auto-destroy path and
   the termination of the polls. *)
From HV Require Import Base.Prelude Conc.Vigil.

Definition b2n (b : bool) : nat := if b then 1 else 0.
Definition count {A} (p : A -> bool) (l : list A) : nat := length (filter p l).

Lemma upd_Forall {A} (P : A -> Prop) : forall l i y, Forall P l -> P y -> Forall P (upd i y l).
Proof.
  induction l as [|z t IH]; intros [|i] y F Py; simpl; auto; inversion F; subst; constructor; auto.
Qed.

Lemma forallb_false {A} (f : A -> bool) l : forallb f l = false -> exists x, In x l /\ f x = false.
Proof.
  induction l as [|a l IH]; simpl; [discriminate|]. destruct (f a) eqn:Fa.
  - intro D. destruct (IH D) as [x [Hin Hx]]. exists x. split; [right|]; assumption.
  - exists a. split; [left; reflexivity|assumption].
Qed.

Lemma count_cons {A} (p : A -> bool) x l : count p (x :: l) = b2n (p x) + count p l.
Proof. unfold count; simpl. destruct (p x); reflexivity. Qed.

Lemma count_upd {A} (p : A -> bool) : forall l i x y,
  nth_error l i = Some x -> count p (upd i y l) + b2n (p x) = count p l + b2n (p y).
Proof.
  induction l as [|z t IH]; intros [|i] x y E; simpl in E; try discriminate.
  - inversion E; subst. simpl. rewrite !count_cons. lia.
  - simpl. rewrite !count_cons. specialize (IH _ _ y E). lia.
Qed.

Lemma count_zero {A} (p : A -> bool) l : count p l = 0 <-> forall x, In x l -> p x = false.
Proof.
  induction l as [|z t IH]; [split; [intros _ x []|reflexivity]|].
  rewrite count_cons. split.
  - intros E x [->|Hin]; [destruct (p x); simpl in E; [lia|reflexivity]|apply IH; [lia|exact Hin]].
  - intro H. rewrite (H z) by (left; reflexivity). apply IH. intros x Hin. apply H. right. exact Hin.
Qed.

Lemma count_pos {A} (p : A -> bool) l : 0 < count p l -> exists x, In x l /\ p x = true.
Proof.
  unfold count. destruct (filter p l) as [|x r] eqn:E; simpl; [lia|]. intros _.
  exists x. apply filter_In. rewrite E. left. reflexivity.
Qed.

Lemma count_nth_pos {A} (p : A -> bool) l i x :
  nth_error l i = Some x -> p x = true -> 0 < count p l.
Proof.
  intros E Px. destruct (count p l) eqn:C; [|apply Nat.lt_0_succ].
  rewrite (proj1 (count_zero p l) C x (nth_error_In _ _ E)) in Px. discriminate.
Qed.

Lemma count_le {A} (p q : A -> bool) l :
  (forall x, p x = true -> q x = true) -> count p l <= count q l.
Proof.
  intros H; induction l as [|z t IH]; [unfold count; simpl; lia|].
  rewrite !count_cons. specialize (H z). destruct (p z), (q z); simpl; try lia.
Qed.

Lemma count_repeat_false {A} (p : A -> bool) x n : p x = false -> count p (repeat x n) = 0.
Proof. intros E. apply count_zero. intros y Hin. apply repeat_spec in Hin. subst; assumption. Qed.

(* the operation has not decremented the counter yet / has not broadcast yet *)
Definition pre_dec (c : cpc) : bool := match c with C0 | C1 => true | _ => false end.
Definition pre_bcast (c : cpc) : bool := match c with C0 | C1 | C2 | C3 => true | _ => false end.

(* what justifies the waiter's pc: at W2 (it read a positive counter) an operation that has not
   decremented; with ticket [t], [t] was drawn and is notified already or a broadcast is to come *)
Definition wok (h : sh) (l : list cpc) (w : wpc) : Prop :=
  match w with
  | W2 => 0 < count pre_dec l
  | W2b t | W3 t => t < nwait h /\ (t < nnotify h \/ 0 < count pre_bcast l)
  | _ => True
  end.

(* second clause: the mutex bit is the number of holders, so there is at most one *)
Definition Inv (s : st) : Prop :=
  cnt (shd s) = Z.of_nat (count pre_dec (cs s)) /\
  count w_holds (ws s) + count c_holds (cs s) = b2n (mu (shd s)) /\
  nnotify (shd s) <= nwait (shd s) /\
  Forall (wok (shd s) (cs s)) (ws s).

Lemma pre_dec_le_bcast l : count pre_dec l <= count pre_bcast l.
Proof. apply count_le. intros [] E; simpl in *; congruence. Qed.

Lemma inv_init nw nops : Inv (init nw nops).
Proof.
  unfold Inv, init; simpl. repeat split.
  - rewrite count_repeat_false by reflexivity. reflexivity.
  - rewrite !count_repeat_false by reflexivity. reflexivity.
  - lia.
  - apply Forall_forall. intros w Hin. apply repeat_spec in Hin. subst. exact I.
Qed.

Lemma wok_mono h h' l l' w :
  nwait h <= nwait h' -> nnotify h <= nnotify h' ->
  (w_holds w = true -> count pre_dec l <= count pre_dec l') ->
  (count pre_bcast l <= count pre_bcast l' \/ nwait h <= nnotify h') ->
  wok h l w -> wok h' l' w.
Proof.
  intros A B C D. destruct w; simpl in *; auto.
  - intro E. specialize (C eq_refl). lia.
  - intros [E F]. lia.
  - intros [E F]. lia.
Qed.

Lemma holder_mutex {A} (p : A -> bool) l i x b :
  nth_error l i = Some x -> count p l <= b2n b -> p x = true -> b = true.
Proof.
  intros E L Px. pose proof (count_nth_pos p l i x E Px). destruct b; [reflexivity|simpl in L; lia].
Qed.

(* the new pc is justified: W2 by the positive counter just read, a ticket by the operation
   that had not decremented when it was drawn *)
Lemma wstep_frame h l w h' w' :
  wstep h w = Some (h', w') -> cnt h = Z.of_nat (count pre_dec l) -> wok h l w ->
  cnt h' = cnt h /\ nnotify h' = nnotify h /\ nwait h <= nwait h' /\
  ((w_holds w = true -> mu h = true) ->
   b2n (mu h') + b2n (w_holds w) = b2n (mu h) + b2n (w_holds w')) /\
  wok h' l w'.
Proof.
  intros E I1 Hw. pose proof (pre_dec_le_bcast l) as Hpb. destruct w; simpl in E, Hw.
  - destruct (mu h); [discriminate|]. injection E as <- <-. simpl. repeat split; auto.
  - injection E as <- <-. destruct (0 <? cnt h)%Z eqn:Ez; simpl; repeat split; auto; lia.
  - injection E as <- <-. simpl. repeat split; auto; lia.
  - injection E as <- <-. simpl. repeat split; auto; try tauto. intro Hm. rewrite (Hm eq_refl). reflexivity.
  - destruct (Nat.ltb t (nnotify h)); [|discriminate]. injection E as <- <-. simpl. repeat split; auto.
  - destruct (mu h); [discriminate|]. injection E as <- <-. simpl. repeat split; auto.
  - injection E as <- <-. simpl. repeat split; auto. intro Hm. rewrite (Hm eq_refl). reflexivity.
  - discriminate.
Qed.

Lemma inv_wstep s i s' : Inv s -> step true s (TW i) = Some s' -> Inv s'.
Proof.
  intros [I1 [I2 [I3 I4]]] E. unfold step in E.
  destruct (nth_error (ws s) i) as [w|] eqn:Ew; [|discriminate].
  destruct (wstep (shd s) w) as [[h' w']|] eqn:Es; [|discriminate].
  injection E as <-.
  pose proof (count_upd w_holds (ws s) i w w' Ew) as Hc.
  pose proof (proj1 (Forall_forall _ _) I4 w (nth_error_In _ _ Ew)) as Hw.
  destruct (wstep_frame _ _ _ _ _ Es I1 Hw) as [F1 [F2 [F3 [F4 F5]]]].
  assert (Hm : w_holds w = true -> mu (shd s) = true)
    by (apply (holder_mutex w_holds _ _ _ _ Ew); clear - I2; lia).
  specialize (F4 Hm).
  unfold Inv; simpl. repeat split; [congruence|lia|lia|].
  apply upd_Forall; [|exact F5].
  eapply Forall_impl; [|exact I4]. intros a. apply wok_mono; auto; lia.
Qed.

(* decrementing under the mutex, an operation leaves [pre_dec] only as a holder, and
   [pre_bcast] only by a broadcast, which reaches every ticket drawn so far *)
Lemma cstep_frame h c h' c' :
  cstep true h c = Some (h', c') -> (c_holds c = true -> mu h = true) ->
  (cnt h' + Z.of_nat (b2n (pre_dec c)) = cnt h + Z.of_nat (b2n (pre_dec c')))%Z /\
  b2n (mu h') + b2n (c_holds c) = b2n (mu h) + b2n (c_holds c') /\
  nwait h' = nwait h /\
  (nnotify h' = nnotify h \/ nnotify h' = nwait h) /\
  (b2n (pre_dec c) <= b2n (pre_dec c') \/ c_holds c = true) /\
  (b2n (pre_bcast c) <= b2n (pre_bcast c') \/ nnotify h' = nwait h).
Proof.
  intros E Hm. destruct c; simpl in E, Hm.
  - injection E as <- <-. simpl. repeat split; auto; lia.
  - destruct (mu h); [discriminate|]. injection E as <- <-. simpl. repeat split; auto.
  - injection E as <- <-. simpl. repeat split; auto; lia.
  - injection E as <- <-. simpl. rewrite (Hm eq_refl). repeat split; auto.
  - injection E as <- <-. simpl. repeat split; auto.
  - discriminate.
Qed.

Lemma inv_cstep s i s' : Inv s -> step true s (TC i) = Some s' -> Inv s'.
Proof.
  intros [I1 [I2 [I3 I4]]] E. unfold step in E.
  destruct (nth_error (cs s) i) as [c|] eqn:Ec; [|discriminate].
  destruct (cstep true (shd s) c) as [[h' c']|] eqn:Es; [|discriminate].
  injection E as <-.
  pose proof (count_upd pre_dec (cs s) i c c' Ec) as Hd.
  pose proof (count_upd pre_bcast (cs s) i c c' Ec) as Hb.
  pose proof (count_upd c_holds (cs s) i c c' Ec) as Hh.
  assert (Hm : c_holds c = true -> mu (shd s) = true)
    by (apply (holder_mutex c_holds _ _ _ _ Ec); clear - I2; lia).
  destruct (cstep_frame _ _ _ _ Es Hm) as [F1 [F2 [F3 [F4 [F5 F6]]]]].
  unfold Inv; simpl. repeat split.
  - clear - I1 Hd F1. lia.
  - clear - I2 Hh F2. lia.
  - clear - I3 F3 F4. lia.
  - apply Forall_forall. intros w Hin. rewrite Forall_forall in I4.
    apply (wok_mono (shd s) h' (cs s)); [lia|lia| |destruct F6; [left|right]; lia|apply I4, Hin].
    (* a holding waiter: the counter it read cannot have dropped, as the decrement needs the mutex *)
    intro Hw. destruct F5 as [F5|F5]; [lia|].
    pose proof (count_nth_pos c_holds _ _ _ Ec F5) as Hp.
    assert (Hz : count w_holds (ws s) = 0) by (clear - I2 Hp; destruct (mu (shd s)); simpl in I2; lia).
    rewrite (proj1 (count_zero _ _) Hz _ Hin) in Hw. discriminate.
Qed.

Lemma inv_step s t s' : Inv s -> step true s t = Some s' -> Inv s'.
Proof. destruct t; [apply inv_wstep|apply inv_cstep]. Qed.

Lemma inv_run : forall sched s s', Inv s -> run true s sched = Some s' -> Inv s'.
Proof.
  induction sched as [|t r IH]; intros s s' I E; simpl in E.
  - inversion E; subst; assumption.
  - destruct (step true s t) as [s1|] eqn:Es; [|discriminate].
    eapply IH; [eapply inv_step; eauto|eassumption].
Qed.

Lemma reach_inv nw nops sched s : run true (init nw nops) sched = Some s -> Inv s.
Proof. apply inv_run, inv_init. Qed.

Lemma quiescent_counts s : quiescent s = true ->
  count pre_dec (cs s) = 0 /\ count pre_bcast (cs s) = 0 /\ count c_holds (cs s) = 0.
Proof.
  unfold quiescent. rewrite forallb_forall. intros Q.
  repeat split; apply count_zero; intros c Hin; specialize (Q c Hin); destruct c;
    simpl in *; congruence.
Qed.

Lemma quiescent_no_sleeper s : Inv s -> quiescent s = true ->
  forall w, In w (ws s) -> w_asleep (shd s) w = false.
Proof.
  intros [_ [_ [_ I4]]] Q w Hin. destruct (quiescent_counts s Q) as [_ [Qb _]].
  rewrite Forall_forall in I4. specialize (I4 w Hin).
  destruct w; simpl in *; try reflexivity.
  destruct I4 as [_ [L|L]]; [|lia].
  apply Nat.ltb_lt in L. rewrite L. reflexivity.
Qed.

Lemma holder_enabled h w : w_holds w = true -> w_enabled h w = true.
Proof. destruct w; try discriminate; reflexivity. Qed.

Lemma free_enabled h w :
  mu h = false -> w_done w = false -> w_asleep h w = false -> w_enabled h w = true.
Proof.
  intros M D A. destruct w; try discriminate; unfold w_enabled; simpl in *; rewrite ?M; try reflexivity.
  apply negb_false_iff in A. rewrite A. reflexivity.
Qed.

Lemma no_stuck_inv s : Inv s -> stuck s = false.
Proof.
  intros I. unfold stuck.
  destruct (quiescent s) eqn:Q; [|reflexivity].
  destruct (forallb w_done (ws s)) eqn:D; [reflexivity|].
  simpl. apply negb_false_iff. apply existsb_exists.
  pose proof (quiescent_no_sleeper s I Q) as NS.
  destruct I as [_ [I2 _]]. destruct (quiescent_counts s Q) as [_ [_ Qh]].
  destruct (mu (shd s)) eqn:Em.
  - (* held: by a waiter, and a holder can always move *)
    assert (P : 0 < count w_holds (ws s)) by (simpl in I2; lia).
    destruct (count_pos _ _ P) as [w [Hin Hw]]. exists w. split; [assumption|apply holder_enabled, Hw].
  - (* free: any waiter that has not returned can move *)
    destruct (forallb_false _ _ D) as [w [Hin Hw]]. exists w. split; [assumption|].
    apply free_enabled; [exact Em|exact Hw|apply NS, Hin].
Qed.

(* non-vacuity: one waiter really slept and was woken *)
Example no_stuck_nonvacuous :
  exists sched s, run true (init 1 2) sched = Some s /\ quiescent s = true /\
                  nwait (shd s) = 2 /\ forallb w_done (ws s) = true.
Proof.
  exists [TC 0; TC 1; TW 0; TW 0; TW 0; TW 0; TC 0; TC 0; TC 0; TC 0; TW 0; TW 0; TW 0;
          TW 0; TW 0; TC 1; TC 1; TC 1; TC 1; TW 0; TW 0; TW 0; TW 0].
  eexists. split; [vm_compute; reflexivity|]. vm_compute. auto.
Qed.

(* the decrement and broadcast without the mutex (locked = false) lose the wake-up: one waiter,
   one operation, seven steps *)
Definition lost_wakeup_schedule : list tid :=
  [TC 0; TW 0; TW 0; TC 0; TC 0; TW 0; TW 0].

(* on the list, as [measure] takes a state *)
Lemma measure_upd : forall l i w w', nth_error l i = Some w ->
  fold_right (fun w a => wmeas w + a) 0 (upd i w' l) + wmeas w =
  fold_right (fun w a => wmeas w + a) 0 l + wmeas w'.
Proof.
  induction l as [|z t IH]; intros [|i] w w' E; simpl in E; try discriminate.
  - inversion E; subst. simpl. lia.
  - simpl. specialize (IH _ _ w' E). lia.
Qed.

Lemma wstep_wmeas h w h' w' : wstep h w = Some (h', w') -> (cnt h <= 0)%Z -> wmeas w' < wmeas w.
Proof.
  intros E Z0. destruct w; simpl in E.
  - destruct (mu h); [discriminate|]. injection E as <- <-. simpl. lia.
  - injection E as <- <-. destruct (0 <? cnt h)%Z eqn:Ez; simpl; lia.
  - injection E as <- <-. simpl. lia.
  - injection E as <- <-. simpl. lia.
  - destruct (Nat.ltb t (nnotify h)); [|discriminate]. injection E as <- <-. simpl. lia.
  - destruct (mu h); [discriminate|]. injection E as <- <-. simpl. lia.
  - injection E as <- <-. simpl. lia.
  - discriminate.
Qed.

Lemma wstep_decreases s i s' : Inv s -> quiescent s = true -> step true s (TW i) = Some s' ->
  measure s' < measure s /\ quiescent s' = true.
Proof.
  intros [I1 _] Q E. destruct (quiescent_counts s Q) as [Qd _]. unfold step in E.
  destruct (nth_error (ws s) i) as [w|] eqn:Ew; [|discriminate].
  destruct (wstep (shd s) w) as [[h' w']|] eqn:Es; [|discriminate].
  injection E as <-. unfold measure, quiescent; simpl. split; [|exact Q].
  pose proof (measure_upd (ws s) i w w' Ew) as M.
  pose proof (wstep_wmeas _ _ _ _ Es ltac:(clear - I1 Qd; lia)). lia.
Qed.

Definition is_TW (t : tid) : Prop := match t with TW _ => True | TC _ => False end.

Lemma waiter_steps_bounded : forall sched s s', Inv s -> quiescent s = true ->
  Forall is_TW sched -> run true s sched = Some s' ->
  length sched + measure s' <= measure s /\ quiescent s' = true /\ Inv s'.
Proof.
  induction sched as [|t r IH]; intros s s' I Q F E; simpl in E.
  - inversion E; subst. simpl. split; [lia|split; assumption].
  - inversion F as [|? ? Ft Fr]; subst. destruct t as [i|i]; [|destruct Ft].
    destruct (step true s (TW i)) as [s1|] eqn:Es; [|discriminate].
    destruct (wstep_decreases s i s1 I Q Es) as [M Q1].
    pose proof (inv_step _ _ _ I Es) as I1.
    destruct (IH s1 s' I1 Q1 Fr E) as [B [Q' I']]. split; [simpl; lia|split; assumption].
Qed.

Lemma waiter_can_step s : Inv s -> quiescent s = true -> forallb w_done (ws s) = false ->
  exists i s1, step true s (TW i) = Some s1.
Proof.
  intros I Q D. pose proof (no_stuck_inv s I) as NS. unfold stuck in NS. rewrite Q, D in NS.
  apply negb_false_iff, existsb_exists in NS. destruct NS as [w [Hin En]].
  destruct (In_nth_error _ _ Hin) as [i Ei]. exists i. unfold step. rewrite Ei.
  unfold w_enabled in En. destruct (wstep (shd s) w) as [[h' w']|]; [eexists; reflexivity|discriminate].
Qed.

Lemma waiters_complete s : Inv s -> quiescent s = true ->
  exists sched s', Forall is_TW sched /\ run true s sched = Some s' /\
                   forallb w_done (ws s') = true /\ length sched <= measure s.
Proof.
  remember (measure s) as n eqn:M. revert s M.
  induction n as [n IH] using lt_wf_ind. intros s -> I Q.
  destruct (forallb w_done (ws s)) eqn:D; [exists [], s; repeat split; auto with arith|].
  destruct (waiter_can_step s I Q D) as [i [s1 Es]].
  destruct (wstep_decreases s i s1 I Q Es) as [M1 Q1].
  destruct (IH _ M1 s1 eq_refl (inv_step _ _ _ I Es) Q1) as [sched [s' [F [R [Dn L]]]]].
  exists (TW i :: sched), s'. repeat split.
  - constructor; [exact Logic.I|assumption].
  - cbn [run]. rewrite Es. assumption.
  - assumption.
  - simpl. clear - L M1. lia.
Qed.

Lemma measure_le s : measure s <= 7 * length (ws s).
Proof. unfold measure. induction (ws s) as [|a l IH]; simpl; [lia|]. destruct a; simpl; lia. Qed.

Definition dInv (s : dst) : Prop := dcnt s = Z.of_nat (count d_inflight (dops s)).

Lemma dinv_init kinds : dInv (dinit kinds).
Proof.
  unfold dInv, dinit; simpl. rewrite (proj2 (count_zero _ _)); [reflexivity|].
  intros p Hin. apply in_map_iff in Hin. destruct Hin as [b [<- _]]. reflexivity.
Qed.

Lemma dinv_step s i s' : dInv s -> dstep_at true s i = Some s' -> dInv s'.
Proof.
  unfold dInv, dstep_at. intros I E.
  destruct (nth_error (dops s) i) as [[b d]|] eqn:En; [|discriminate].
  destruct (dstep true b (dcnt s) d) as [[n' d']|] eqn:Es; [|discriminate].
  inversion E; subst s'; clear E. simpl.
  (* the step changes the counter and [d_inflight] of the stepping operation by the same amount *)
  pose proof (count_upd d_inflight (dops s) i (b, d) (b, d') En) as Hc.
  unfold d_inflight in Hc at 2 4. simpl in Hc. destruct d; simpl in Es.
  - injection Es as <- <-. simpl in Hc. lia.
  - destruct b; injection Es as <- <-; simpl in Hc; lia.
  - destruct (dcnt s <=? 0)%Z; [|discriminate]. injection Es as <- <-. simpl in Hc. lia.
  - injection Es as <- <-. simpl in Hc. lia.
  - discriminate.
Qed.

Lemma dinv_run : forall sched s s', dInv s -> drun true s sched = Some s' -> dInv s'.
Proof.
  induction sched as [|i r IH]; intros s s' I E; simpl in E.
  - injection E as <-. exact I.
  - destruct (dstep_at true s i) as [s1|] eqn:Es; [|discriminate].
    eapply IH; [eapply dinv_step; eauto|eassumption].
Qed.

Example counter_balance_nonvacuous :
  exists s, drun true (dinit [true; false]) [1; 0; 0; 1; 0; 0] = Some s /\ dcnt s = 0%Z /\
            map snd (dops s) = [DDone; DDone].
Proof. eexists. split; [vm_compute; reflexivity|]. vm_compute. auto. Qed.

Theorem poll_capped_terminates : forall fuel cap iter opens k,
  cap - iter < fuel ->
  exists n, poll_capped fuel cap iter opens k = Some n /\ n <= k + (cap - iter).
Proof.
  induction fuel as [|f IH]; intros cap iter opens k L; [lia|]. simpl.
  destruct (Nat.eqb (opens k) 0); [exists k; split; [reflexivity|lia]|].
  destruct (Nat.leb cap iter) eqn:Ec; [exists k; split; [reflexivity|lia]|].
  apply Nat.leb_gt in Ec.
  destruct (IH cap (S iter) opens (S k) ltac:(lia)) as [n [E B]]. exists n. split; [assumption|lia].
Qed.

Theorem poll_until_terminates : forall (d fuel : nat) (locked : nat -> Z) (k : nat),
  (locked (k + d)%nat <= 0)%Z -> d < fuel ->
  exists n, poll_until fuel locked k = Some n /\ n <= k + d /\ (locked n <= 0)%Z.
Proof.
  induction d as [|d IH]; intros fuel locked k Z0 L; (destruct fuel as [|f]; [lia|]); simpl.
  - rewrite Nat.add_0_r in Z0. apply Z.leb_le in Z0. rewrite Z0.
    exists k. repeat split; [lia|apply Z.leb_le; assumption].
  - destruct (locked k <=? 0)%Z eqn:E.
    + exists k. repeat split; [lia|apply Z.leb_le; assumption].
    + replace (k + S d) with (S k + d) in Z0 by lia.
      destruct (IH f locked (S k) Z0 ltac:(lia)) as [n [E1 [B1 B2]]].
      exists n. repeat split; [assumption|lia|assumption].
Qed.

Example poll_capped_example :
  poll_capped 20 10 0 (fun _ => 3) 0 = Some 10 /\ poll_capped 20 10 0 (fun k => 2 - k) 0 = Some 2.
Proof. vm_compute. auto. Qed.
