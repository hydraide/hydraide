(* Conc/LocksetProofs.v — C10: the invariant behind the soundness of the lockset criterion in
   the interleaving semantics of Lockset.v (threads inside accesses hold compatible locks), along
   every run; witnesses that the semantics is not vacuous; [rw_run_app], the multi-getter read
   split at any point of its trace (behind C10_read_single_getter_partial). *)
From HV Require Import Base.Prelude Conc.Lockset.
From Coq Require Import String.
Local Open Scope string_scope.

Lemma nth_error_set_inv {A} (l : list A) : forall n m x y,
  nth_error (set_nth n x l) m = Some y -> m = n /\ y = x \/ m <> n /\ nth_error l m = Some y.
Proof.
  induction l as [|a t IH]; intros [|n] [|m] x y H; simpl in H; try discriminate.
  - left. split; congruence.
  - right. split; [discriminate|exact H].
  - right. split; [discriminate|exact H].
  - destruct (IH _ _ _ _ H) as [[-> ->]|[N E]]; [left; split; reflexivity|right; split; [congruence|exact E]].
Qed.

Lemma in_combine_seq {A} (c : list A) : forall s j x,
  nth_error c j = Some x -> In ((s + j)%nat, x) (combine (seq s (List.length c)) c).
Proof.
  induction c as [|a t IH]; intros s [|j] x H; simpl in *; try discriminate.
  - inversion H; subst. left. f_equal. lia.
  - right. replace (s + S j)%nat with (S s + j)%nat by lia. apply IH. exact H.
Qed.

Lemma others_compatible_spec c t a :
  others_compatible c t a = true ->
  forall j b, nth_error c j = Some (Some b) -> j <> t -> lock_compatible a b = true.
Proof.
  unfold others_compatible. intros H j b Hn Hne. rewrite forallb_forall in H.
  pose proof (in_combine_seq c 0 j (Some b) Hn) as Hi. simpl in Hi.
  specialize (H _ Hi). simpl in H.
  apply orb_true_iff in H as [H|H]; [apply Nat.eqb_eq in H; contradiction|exact H].
Qed.

Lemma lock_compatible_sym a b : lock_compatible a b = lock_compatible b a.
Proof. apply andb_comm. Qed.

Section Sound.
Variable tbl : list row.

Definition LInv (c : cfg) : Prop :=
  (forall i a, nth_error c i = Some (Some a) -> In a tbl) /\
  (forall i j a b, i <> j -> nth_error c i = Some (Some a) -> nth_error c j = Some (Some b) ->
                   lock_compatible a b = true).

Lemma linv_step c e c' : LInv c -> ev_in_table tbl e -> lstep c e = Some c' -> LInv c'.
Proof.
  intros [I1 I2] He H. destruct e as [t a|t]; simpl in H, He.
  - destruct (nth_error c t) as [[x|]|]; try discriminate.
    destruct (others_compatible c t a) eqn:Hc; [|discriminate]. injection H as <-.
    pose proof (others_compatible_spec _ _ _ Hc) as Hs.
    split.
    + intros i a0 Hn. apply nth_error_set_inv in Hn as [[_ E]|[_ Hn]]; [congruence|eapply I1; exact Hn].
    + intros i j a0 b0 Hij Hi Hj.
      apply nth_error_set_inv in Hi as [[-> Ea]|[Hti Hi]]; apply nth_error_set_inv in Hj as [[-> Eb]|[Htj Hj]].
      * congruence.
      * injection Ea as ->. eapply Hs; eassumption.
      * injection Eb as ->. rewrite lock_compatible_sym. eapply Hs; eassumption.
      * eapply (I2 i j); eassumption.
  - destruct (nth_error c t) as [[x|]|]; try discriminate. injection H as <-. split.
    + intros i a0 Hn. apply nth_error_set_inv in Hn as [[_ E]|[_ Hn]]; [discriminate|eapply I1; exact Hn].
    + intros i j a0 b0 Hij Hi Hj.
      apply nth_error_set_inv in Hi as [[_ E]|[_ Hi]]; [discriminate|].
      apply nth_error_set_inv in Hj as [[_ E]|[_ Hj]]; [discriminate|]. eapply (I2 i j); eassumption.
Qed.

Lemma linv_idle n : LInv (repeat None n).
Proof.
  split.
  - intros i a H. apply nth_error_In in H. apply repeat_spec in H. discriminate.
  - intros i j a b _ H. apply nth_error_In in H. apply repeat_spec in H. discriminate.
Qed.

Lemma linv_run tr : forall c c',
  LInv c -> Forall (ev_in_table tbl) tr -> lrun c tr = Some c' -> LInv c'.
Proof.
  induction tr as [|e t IH]; simpl; intros c c' I Hf Hr.
  - injection Hr as <-. exact I.
  - inversion Hf as [|? ? He Ht]; subst.
    destruct (lstep c e) as [c1|] eqn:Es; [|discriminate].
    eapply IH; [eapply linv_step; eassumption|exact Ht|exact Hr].
Qed.

Section Free.
Hypothesis Hfree : race_free tbl = true.

Lemma free_pair a b : In a tbl -> In b tbl -> conflict a b = true -> protected a b = true.
Proof.
  intros Ha Hb Hc. unfold race_free in Hfree. rewrite forallb_forall in Hfree.
  specialize (Hfree a Ha). rewrite forallb_forall in Hfree. specialize (Hfree b Hb).
  unfold racy in Hfree. rewrite Hc in Hfree. simpl in Hfree.
  destruct (protected a b); [reflexivity|discriminate].
Qed.

Lemma linv_no_conflict c i j a b :
  LInv c -> i <> j -> nth_error c i = Some (Some a) -> nth_error c j = Some (Some b) -> conflict a b = false.
Proof.
  intros [I1 I2] Hij Hi Hj. destruct (conflict a b) eqn:Hc; [|reflexivity].
  pose proof (free_pair a b (I1 _ _ Hi) (I1 _ _ Hj) Hc) as Hp.
  pose proof (I2 _ _ _ _ Hij Hi Hj) as Hl. unfold lock_compatible in Hl. rewrite Hp in Hl. discriminate.
Qed.
End Free.

End Sound.

(* non-vacuity of the soundness theorem: a run over the sound sub-table in which a guarded writer and
   a beacon reader are inside their accesses at the same time, and a second guard holder is
   refused *)
Example sound_nonvacuous :
  let w := R 20 "treasure.SetContent*" LContent Wr guardX in
  let r := R 4 "beacon.Get|IsExists|AreExists|Count" LBeaconMap Rd bmuS in
  In w table_guarded /\ In r table_guarded /\
  lrun (repeat None 3) [Begin 0 w; Begin 1 r; End 1; Begin 1 r] <> None /\
  lrun (repeat None 3) [Begin 0 w; Begin 2 w] = None.
Proof.
  intros w r. split; [|split; [|split]].
  - apply filter_In. split; [apply in_or_app; right; left; reflexivity|reflexivity].
  - apply filter_In. split; [apply in_or_app; left; do 3 right; left; reflexivity|reflexivity].
  - vm_compute. discriminate.
  - reflexivity.
Qed.

(* and the semantics does exhibit the race the table predicts: a guarded setter and a
   lock-free getter are inside their accesses simultaneously *)
Example race_reachable :
  let w := R 20 "treasure.SetContent*" LContent Wr guardX in
  let g := R 23 "treasure.GetContent*" LContent Rd tmuS in
  exists c, lrun (repeat None 2) [Begin 0 w; Begin 1 g] = Some c /\
            nth_error c 0 = Some (Some w) /\ nth_error c 1 = Some (Some g) /\ conflict w g = true.
Proof. intros w g. exists [Some w; Some g]. repeat split; reflexivity. Qed.

(* a multi-getter read can be cut anywhere: the rest runs from the record and the values got so far *)
Lemma rw_run_app tr1 : forall r got tr2,
  rw_run r got (tr1 ++ tr2) = rw_run (fst (rw_run r got tr1)) (snd (rw_run r got tr1)) tr2.
Proof.
  induction tr1 as [|s t IH]; intros r got tr2; simpl; [reflexivity|].
  destruct s; apply IH.
Qed.
