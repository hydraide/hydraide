(* Invariants of the summon protocol with the fixed slot accounting (fixed = true), for every
   schedule in which no Destroy() starts its teardown after a Close() of the same instance (the
   slot part: for every schedule). Every step rewrites at most one slot or one instance (with
   its map entry): per invariant, one frame lemma and one lemma for that rewrite. *)
From HV Require Import Base.Prelude Conc.Summon.

Lemma upd_same {A} (f : nat -> A) k v : upd f k v k = v.
Proof. unfold upd. rewrite Nat.eqb_refl. reflexivity. Qed.
Lemma upd_other {A} (f : nat -> A) k v x : x <> k -> upd f k v x = f x.
Proof. unfold upd. intro H. apply Nat.eqb_neq in H. rewrite H. reflexivity. Qed.
Lemma upd_upd {A} (f : nat -> A) k u v x : upd (upd f k u) k v x = upd f k v x.
Proof. unfold upd. destruct (Nat.eqb x k); reflexivity. Qed.

(* slot a thread is registered on (counted in [count]) / whose section it owns / it refers to *)
Definition reg (p : pc) : option nat :=
  match p with
  | SWait w _ | SBody w | SFound w _ | SWaitClose w _ | SCreate w | SStore w _ | SExit w _ => Some w
  | _ => None
  end.
Definition insec (p : pc) : option nat :=
  match p with
  | SBody w | SFound w _ | SWaitClose w _ | SCreate w | SStore w _ | SExit w _ => Some w
  | _ => None
  end.
Definition sref (p : pc) : option nat :=
  match p with
  | SLock w => Some w
  | _ => reg p
  end.

Lemma insec_reg p w : insec p = Some w -> reg p = Some w.
Proof. destruct p; simpl; congruence. Qed.
Lemma reg_sref p w : reg p = Some w -> sref p = Some w.
Proof. destruct p; simpl; congruence. Qed.

Record SInv (s : st) : Prop := {
  s_cur   : forall w, cur s = Some w -> w < nslots s /\ dead (slots s w) = false;
  s_alive : forall w, w < nslots s -> dead (slots s w) = false -> cur s = Some w;
  s_fd    : forall w, nslots s <= w -> dead (slots s w) = false;
  s_cnt   : forall w, count (slots s w) = Z.of_nat (length (owners (slots s w)));
  s_nd    : forall w, NoDup (owners (slots s w));
  s_own   : forall w t, In t (owners (slots s w)) <-> reg (pcs s t) = Some w;
  s_dead  : forall w, dead (slots s w) = true -> owners (slots s w) = [];
  s_sec   : forall w t, insec (pcs s t) = Some w ->
                        holder (slots s w) = Some t /\ ready (slots s w) = true;
  s_lt    : forall t w, sref (pcs s t) = Some w -> w < nslots s
}.

Lemma rm_in t x l : In x (rm t l) <-> In x l /\ x <> t.
Proof. split; [apply in_remove|intros []; apply in_in_remove; assumption]. Qed.
Lemma rm_nodup t l : NoDup l -> NoDup (rm t l).
Proof. unfold rm. rewrite <- remove_alt. apply NoDup_filter. Qed.
Lemma rm_len t l : NoDup l -> In t l -> S (length (rm t l)) = length l.
Proof.
  induction l as [|a l IH]; simpl; intros Hn Hi; [tauto|].
  inversion Hn as [|? ? Hna Hl]; subst.
  destruct (Nat.eq_dec t a) as [->|Hne].
  - f_equal. f_equal. apply notin_remove. assumption.
  - simpl. f_equal. destruct Hi as [->|Hi]; [congruence|]. apply IH; assumption.
Qed.
Arguments rm : simpl never.

(* all threads in a section are in the section of the one current slot, whose holder is unique *)
Lemma reg_alive s t w : SInv s -> reg (pcs s t) = Some w -> cur s = Some w.
Proof.
  intros I H. apply (s_alive s I).
  - apply (s_lt s I t). apply reg_sref. exact H.
  - destruct (dead (slots s w)) eqn:D; [|reflexivity].
    apply (s_dead s I) in D. apply (s_own s I) in H. rewrite D in H. destruct H.
Qed.

Lemma mutex s t t' w w' : SInv s ->
  insec (pcs s t) = Some w -> insec (pcs s t') = Some w' -> t = t' /\ w = w'.
Proof.
  intros I H H'.
  assert (C : cur s = Some w) by (eapply reg_alive; eauto using insec_reg).
  assert (C' : cur s = Some w') by (eapply reg_alive; eauto using insec_reg).
  assert (w = w') by congruence. subst w'.
  apply (s_sec s I) in H. apply (s_sec s I) in H'. destruct H as [H _], H' as [H' _].
  split; congruence.
Qed.

Lemma reg_not_dead s t w : SInv s -> reg (pcs s t) = Some w -> dead (slots s w) = false.
Proof. intros I H. apply (s_cur s I). eapply reg_alive; eauto. Qed.

(* what [SInv] reads of a state *)
Definition sview (s : st) := (pcs s, slots s, nslots s, cur s).

Lemma sinv_frame s r t p' : SInv s -> sview r = sview s ->
  reg p' = reg (pcs s t) -> insec p' = insec (pcs s t) ->
  (forall w, sref p' = Some w -> w < nslots s) ->
  SInv (set_pc r t p').
Proof.
  intros I [= Hp Hs Hn Hc] Hr Hi Hf.
  assert (R : forall x, reg (upd (pcs s) t p' x) = reg (pcs s x)).
  { intro x. unfold upd. destruct (Nat.eqb_spec x t); subst; auto. }
  assert (S : forall x, insec (upd (pcs s) t p' x) = insec (pcs s x)).
  { intro x. unfold upd. destruct (Nat.eqb_spec x t); subst; auto. }
  constructor; cbn; rewrite ?Hp, ?Hs, ?Hn, ?Hc; try solve [apply I].
  - intros w x. rewrite R. apply (s_own s I).
  - intros w x. rewrite S. apply (s_sec s I).
  - intros x w. unfold upd. destruct (Nat.eqb_spec x t); [apply Hf|apply (s_lt s I)].
Qed.

Lemma sinv_move s r t p p' : SInv s -> pcs s t = p -> sview r = sview s ->
  reg p' = reg p -> insec p' = insec p -> sref p' = sref p ->
  SInv (set_pc r t p').
Proof.
  intros I <- Hv Hr Hi Hf. apply (sinv_frame s); auto.
  intros w A. apply (s_lt s I t). congruence.
Qed.

(* LoadOrStore on an empty map entry *)
Lemma sinv_alloc s : SInv s -> cur s = None -> SInv (alloc_slot s).
Proof.
  intros I Hc. constructor; cbn; try solve [apply I].
  - intros w [= <-]. split; [lia|]. apply (s_fd s I). lia.
  - intros w A B. destruct (Nat.eq_dec w (nslots s)) as [->|Hne]; [reflexivity|].
    apply (s_alive s I) in B; [congruence|lia].
  - intros w A. apply (s_fd s I). lia.
  - intros t w A. apply (s_lt s I) in A. lia.
Qed.

(* a step of t that rewrites its slot w; a dead new value takes the map entry with it *)
Lemma sinv_slot s s' t w p' sl' :
  SInv s -> sref (pcs s t) = Some w -> dead (slots s w) = false ->
  sview s' = (upd (pcs s) t p', upd (slots s) w sl', nslots s,
              if dead sl' then None else cur s) ->
  count sl' = Z.of_nat (length (owners sl')) -> NoDup (owners sl') ->
  (In t (owners sl') <-> reg p' = Some w) ->
  (forall x, x <> t -> In x (owners sl') <-> In x (owners (slots s w))) ->
  (dead sl' = true -> owners sl' = []) ->
  (forall w', sref p' = Some w' -> w' = w) ->
  (insec p' = Some w -> holder sl' = Some t /\ ready sl' = true) ->
  (forall x, x <> t -> insec (pcs s x) = Some w -> holder sl' = Some x /\ ready sl' = true) ->
  SInv s'.
Proof.
  intros I Hsr Hd [= Hp Hs Hn Hc] Hcnt Hnd Hown Hoo Hnil Hw Hin Hoth.
  assert (Hlt : w < nslots s) by (eapply (s_lt s I); eauto).
  assert (Hcur : cur s = Some w) by (apply (s_alive s I); assumption).
  assert (Hreg : forall w', reg p' = Some w' -> w' = w) by (intros w' H; apply Hw, reg_sref, H).
  constructor; rewrite ?Hn, ?Hc, ?Hs, ?Hp.
  - intros w0 H. destruct (dead sl') eqn:D; [discriminate|].
    destruct (s_cur s I w0 H) as [A B]. split; [exact A|].
    unfold upd. destruct (Nat.eqb_spec w0 w); subst; auto.
  - intros w0 A B. unfold upd in B. destruct (Nat.eqb_spec w0 w) as [->|Hne].
    + rewrite B. exact Hcur.
    + exfalso. apply Hne. apply (s_alive s I) in B; congruence.
  - intros w0 A. rewrite upd_other by lia. apply (s_fd s I), A.
  - intros w0. unfold upd. destruct (Nat.eqb_spec w0 w); [exact Hcnt|apply (s_cnt s I)].
  - intros w0. unfold upd. destruct (Nat.eqb_spec w0 w); [exact Hnd|apply (s_nd s I)].
  - intros w0 x. unfold upd.
    destruct (Nat.eqb_spec w0 w) as [->|Hne]; destruct (Nat.eqb_spec x t) as [->|Hxt].
    + exact Hown.
    + rewrite (Hoo x Hxt). apply (s_own s I).
    + rewrite (s_own s I). split; intro H.
      * apply reg_sref in H. congruence.
      * apply Hreg in H. congruence.
    + apply (s_own s I).
  - intros w0. unfold upd. destruct (Nat.eqb_spec w0 w); [exact Hnil|apply (s_dead s I)].
  - intros w0 x. unfold upd. destruct (Nat.eqb_spec x t) as [->|Hxt].
    + intro H. assert (w0 = w) by (apply Hreg, insec_reg, H). subst w0.
      rewrite Nat.eqb_refl. auto.
    + intro H. destruct (Nat.eqb_spec w0 w) as [->|Hne]; [auto|]. apply (s_sec s I); exact H.
  - intros x w0. unfold upd. destruct (Nat.eqb_spec x t) as [->|Hxt].
    + intro H. apply Hw in H. subst. exact Hlt.
    + apply (s_lt s I).
Qed.

Lemma sinv_lock_wait s t w g : SInv s -> pcs s t = SLock w -> dead (slots s w) = false ->
  SInv (set_pc (set_slot s w (add_count (slots s w) t)) t (SWait w g)).
Proof.
  intros I Hpc Hd. assert (Hc := s_cnt s I w).
  assert (Hn : ~ In t (owners (slots s w))).
  { intro A. apply (s_own s I) in A. rewrite Hpc in A. discriminate. }
  apply sinv_slot with (s := s) (t := t) (w := w) (p' := SWait w g)
                       (sl' := add_count (slots s w) t); cbn; auto.
  - rewrite Hpc. reflexivity.
  - rewrite Hd. reflexivity.
  - (* s_cnt *) lia.
  - constructor; [exact Hn|apply (s_nd s I)].
  - (* s_own, t *) tauto.
  - (* s_own, others *) intuition congruence.
  - (* s_dead *) congruence.
  - (* s_lt *) congruence.
  - (* s_sec, t *) discriminate.
  - intros x _. apply (s_sec s I).
Qed.

Lemma sinv_wait_enter s t w g : SInv s -> pcs s t = SWait w g -> ready (slots s w) = false ->
  SInv (set_pc (set_slot s w (take (slots s w) t)) t (SBody w)).
Proof.
  intros I Hpc Hrd.
  assert (Hr : reg (pcs s t) = Some w) by (rewrite Hpc; reflexivity).
  assert (Hd := reg_not_dead s t w I Hr).
  apply sinv_slot with (s := s) (t := t) (w := w) (p' := SBody w)
                       (sl' := take (slots s w) t); cbn; auto using reg_sref.
  - rewrite Hd. reflexivity.
  - apply (s_cnt s I).
  - apply (s_nd s I).
  - rewrite (s_own s I), Hpc. reflexivity.
  - (* s_own, others *) tauto.
  - (* s_dead *) congruence.
  - (* s_lt *) congruence.
  - intros x _ A. apply (s_sec s I) in A. destruct A as [_ A]. congruence.
Qed.

(* leaveWaiter: the last owner marks the slot dead and deletes the map entry *)
Lemma sinv_leave s t w rel r :
  SInv s -> reg (pcs s t) = Some w -> (rel = true -> insec (pcs s t) = Some w) ->
  SInv (set_pc (leave_fixed s t w rel) t (SDone r)).
Proof.
  intros I Hr Ht.
  assert (Hd := reg_not_dead s t w I Hr).
  assert (Hin : In t (owners (slots s w))) by (apply (s_own s I); exact Hr).
  assert (Hlen := rm_len t _ (s_nd s I w) Hin).
  assert (Hc := s_cnt s I w).
  unfold leave_fixed. cbv zeta.
  set (last := (count (slots s w) - 1 =? 0)%Z).
  set (sl' := Build_slot _ _ _ _ _ _).
  apply sinv_slot with (s := s) (t := t) (w := w) (p' := SDone r) (sl' := sl');
    auto using reg_sref; cbn; try discriminate.
  - unfold sview. destruct last; cbn; rewrite ?Hd; reflexivity.
  - (* s_cnt *) lia.
  - apply rm_nodup, (s_nd s I).
  - (* s_own *) rewrite rm_in. intuition congruence.
  - intros x Hx. rewrite rm_in. tauto.
  - (* s_dead *) subst last. destruct (Z.eqb_spec (count (slots s w) - 1) 0); [|congruence].
    intros _. apply length_zero_iff_nil. lia.
  - (* s_sec *) intros x Hx Hi. destruct rel.
    + destruct (mutex s t x w w I (Ht eq_refl) Hi) as [A _]. congruence.
    + apply (s_sec s I). exact Hi.
Qed.

(* [upd (upd f k u) k v] is not convertible to [upd f k v]: two steps in a row are compared with
   the one step of the model pointwise *)
Lemma sinv_ext s s' : SInv s ->
  (forall t, pcs s' t = pcs s t) -> (forall w, slots s' w = slots s w) ->
  nslots s' = nslots s -> cur s' = cur s ->
  SInv s'.
Proof.
  intros I Hp Hs Hn Hc.
  constructor; rewrite ?Hn, ?Hc; intros *; rewrite ?Hp, ?Hs; apply I.
Qed.

(* register, then enter as a woken waiter would; SInv does not read the generation a waiter
   registered at, so 0 serves in between *)
Lemma sinv_lock_enter s t w : SInv s -> pcs s t = SLock w ->
  dead (slots s w) = false -> ready (slots s w) = false ->
  SInv (set_pc (set_slot s w (take (add_count (slots s w) t) t)) t (SBody w)).
Proof.
  intros I Hpc Hd Hrd.
  assert (J := sinv_lock_wait s t w 0 I Hpc Hd).
  apply sinv_wait_enter with (t := t) (w := w) (g := 0) in J;
    [|apply upd_same|cbn; rewrite upd_same; exact Hrd].
  apply (sinv_ext _ _ J); auto; intro x; cbn.
  - symmetry. apply upd_upd.
  - rewrite upd_same, upd_upd. reflexivity.
Qed.

Lemma leave_set_pc s t w r x p :
  leave_fixed (set_pc s x p) t w r = set_pc (leave_fixed s t w r) x p.
Proof. unfold leave_fixed. cbn. destruct (_ =? 0)%Z; reflexivity. Qed.

Lemma sinv_lock_leave s t w : SInv s -> pcs s t = SLock w -> dead (slots s w) = false ->
  SInv (set_pc (leave_fixed (set_slot s w (add_count (slots s w) t)) t w false) t (SDone None)).
Proof.
  intros I Hpc Hd.
  assert (J := sinv_lock_wait s t w 0 I Hpc Hd).
  apply sinv_leave with (t := t) (w := w) (rel := false) (r := None) in J;
    [|cbn; rewrite upd_same; reflexivity|discriminate].
  rewrite leave_set_pc in J.
  apply (sinv_ext _ _ J); auto. intro x. cbn. symmetry. apply upd_upd.
Qed.

(* instance the thread is tearing down: past its gate, callback not finished *)
Definition tdpc (p : pc) : option nat :=
  match p with
  | CFinish i | CCallback i | DFinish i | DCallback i => Some i
  | _ => None
  end.

(* what the pc of thread t promises about the shared state *)
Record pc_ok (s : st) (t : nat) (p : pc) : Prop := {
  k_create : forall w, p = SCreate w -> mapi s = None;
  k_store  : forall w i, p = SStore w i ->
               mapi s = None /\ stored (insts s i) = false /\ i < ninst s;
  k_tdpc   : forall i, tdpc p = Some i ->
               tearer (insts s i) = Some t /\ cbdone (insts s i) = false /\ i < ninst s;
  k_cbpc   : forall i, p = CCallback i \/ p = DCallback i -> cancelled (insts s i) = true;
  k_found  : forall w i, p = SFound w i -> stored (insts s i) = true /\ i < ninst s;
  k_dgate  : forall i, p = DGate i -> closing (insts s i) = true /\ i < ninst s
}.

Record IInv (s : st) : Prop := {
  i_map   : forall i, mapi s = Some i -> i < ninst s /\ stored (insts s i) = true;
  i_unst  : forall i, i < ninst s -> stored (insts s i) = false -> exists t w, pcs s t = SStore w i;
  i_open  : forall i, stored (insts s i) = true -> tearer (insts s i) = None -> mapi s = Some i;
  i_tear  : forall i t, tearer (insts s i) = Some t -> cbdone (insts s i) = false ->
              tdpc (pcs s t) = Some i /\ (stored (insts s i) = true -> mapi s = Some i);
  i_cb    : forall i, cbdone (insts s i) = true -> cancelled (insts s i) = true;
  i_canc  : forall i, cancelled (insts s i) = true -> tearer (insts s i) <> None;
  i_tcl   : forall i, tearer (insts s i) <> None ->
              closing (insts s i) = true /\
              (cstarted (insts s i) = true \/ destroyed (insts s i) = true);
  i_fresh : forall i, ninst s <= i -> insts s i = fresh_inst;
  i_pc    : forall t, pc_ok s t (pcs s t)
}.

Definition Inv (s : st) : Prop := SInv s /\ IInv s.

(* [mute p]: [pc_ok] says nothing of a thread at p. [unwatched p]: no clause of [IInv] names a
   thread at p as the one storing or tearing down an instance. *)
Definition mute (p : pc) : bool :=
  match p with
  | SCreate _ | SStore _ _ | SFound _ _ | DGate _
  | CFinish _ | CCallback _ | DFinish _ | DCallback _ => false
  | _ => true
  end.
Definition unwatched (p : pc) : bool :=
  match p with
  | SStore _ _ | CFinish _ | CCallback _ | DFinish _ | DCallback _ => false
  | _ => true
  end.

Lemma pc_ok_triv s t p : mute p = true -> pc_ok s t p.
Proof.
  destruct p; try discriminate; constructor; try discriminate; intros ? [|]; discriminate.
Qed.

Lemma untouched s i : IInv s ->
  closing (insts s i) = false \/ cstarted (insts s i) = false /\ destroyed (insts s i) = false ->
  tearer (insts s i) = None.
Proof.
  intros I H. destruct (tearer (insts s i)) eqn:T; [|reflexivity].
  destruct (i_tcl s I i) as [A B]; [congruence|]. intuition congruence.
Qed.

(* what [IInv] reads of a state *)
Definition iview (s : st) := (pcs s, insts s, ninst s, mapi s).

Lemma leave_iview s t w r v : iview s = v -> iview (leave_fixed s t w r) = v.
Proof. intros <-. unfold leave_fixed. destruct (_ =? 0)%Z; reflexivity. Qed.

Lemma iinv_frame s r t p p' : IInv s -> pcs s t = p -> iview r = iview s ->
  (forall w i, p <> SStore w i) -> tdpc p = None ->
  pc_ok s t p' -> IInv (set_pc r t p').
Proof.
  intros I <- [= Hp Hi Hn Hm] Hns Htd Hok.
  constructor; cbn; rewrite ?Hp, ?Hi, ?Hn, ?Hm; try solve [apply I].
  - intros i A B. destruct (i_unst s I i A B) as [x [w E]]. exists x, w.
    rewrite upd_other; [exact E|]. intros ->. eapply Hns; eauto.
  - intros i x A B. destruct (i_tear s I i x A B) as [C D]. split; [|exact D].
    rewrite upd_other; [exact C|]. intros ->. congruence.
  - intro x. unfold upd. destruct (Nat.eqb_spec x t) as [->|Hx].
    + destruct Hok. constructor; cbn; rewrite ?Hi, ?Hn, ?Hm; assumption.
    + destruct (i_pc s I x). constructor; cbn; rewrite ?Hi, ?Hn, ?Hm; assumption.
Qed.

Lemma iinv_quiet s r t p p' : IInv s -> pcs s t = p -> iview r = iview s ->
  unwatched p = true -> mute p' = true -> IInv (set_pc r t p').
Proof.
  intros I E V U M. eapply iinv_frame; eauto using pc_ok_triv; destruct p; easy.
Qed.

(* a step of t that rewrites instance i (to v) and possibly the map entry (to m). What the pcs of
   the other threads promise survives because stored, cancelled and closing only go up, tearer and
   cbdone of i are written by its tearer only, and the section promises (no map entry, i not
   stored) are either kept or t itself is the one thread in the section. *)
Lemma iinv_inst s s' t i v m p' :
  IInv s -> i < ninst s ->
  iview s' = (upd (pcs s) t p', upd (insts s) i v, ninst s, m) ->
  (* if a clause points at the old pc of t, it is a clause about i *)
  (forall w j, pcs s t = SStore w j -> j = i /\ stored v = true) ->
  (forall j, tdpc (pcs s t) = Some j -> j = i) ->
  (forall j, j <> i -> m = Some j <-> mapi s = Some j) ->
  (* the clauses about i *)
  (m = Some i -> mapi s = Some i \/ stored v = true) ->
  (stored v = true -> tearer v = None -> m = Some i) ->
  (forall y, tearer v = Some y -> cbdone v = false ->
     tdpc (upd (pcs s) t p' y) = Some i /\ (stored v = true -> m = Some i)) ->
  (cbdone v = true -> cancelled v = true) ->
  (cancelled v = true -> tearer v <> None) ->
  (tearer v <> None -> closing v = true /\ (cstarted v = true \/ destroyed v = true)) ->
  pc_ok s' t p' ->
  (* what the other threads rely on *)
  ((mapi s = None -> m = None) /\ (stored (insts s i) = false -> stored v = false) \/
   (forall y, y <> t -> insec (pcs s y) = None)) ->
  (forall y, y <> t -> tearer (insts s i) = Some y ->
     tearer v = Some y /\ cbdone v = cbdone (insts s i)) ->
  (stored (insts s i) = true -> stored v = true) ->
  (cancelled (insts s i) = true -> cancelled v = true) ->
  (closing (insts s i) = true -> closing v = true) ->
  IInv s'.
Proof.
  intros I Hlt [= Hp Hi Hn Hm] Hst Htd Hoth Cmap Copen Ctear Ccb Ccanc Ctcl Hpc' Hsec Htear Mst Mca Mcl.
  constructor; rewrite ?Hp, ?Hi, ?Hn, ?Hm.
  - intros j E. destruct (Nat.eq_dec j i) as [->|Hne].
    + rewrite upd_same. split; [exact Hlt|]. destruct (Cmap E) as [A|A]; [|exact A].
      apply Mst, (i_map s I), A.
    + rewrite upd_other by exact Hne. apply (i_map s I), Hoth, E. exact Hne.
  - intros j A B. assert (B' : stored (insts s j) = false).
    { unfold upd in B. destruct (Nat.eqb_spec j i) as [->|]; [|exact B].
      destruct (stored (insts s i)); [|reflexivity]. rewrite Mst in B; auto. }
    destruct (i_unst s I j A B') as [y [w E]]. exists y, w.
    rewrite upd_other; [exact E|]. intros ->. destruct (Hst _ _ E) as [-> C].
    rewrite upd_same in B. congruence.
  - intros j. unfold upd. destruct (Nat.eqb_spec j i) as [->|Hne]; [exact Copen|].
    intros A B. apply Hoth; [exact Hne|]. apply (i_open s I); assumption.
  - intros j y. unfold upd at 1 2 4. destruct (Nat.eqb_spec j i) as [->|Hne]; [apply Ctear|].
    intros A B. destruct (i_tear s I j y A B) as [C D]. split.
    + rewrite upd_other; [exact C|]. intros ->. apply Hne, Htd, C.
    + intro E. apply Hoth; auto.
  - intros j. unfold upd. destruct (Nat.eqb_spec j i); [exact Ccb|apply (i_cb s I)].
  - intros j. unfold upd. destruct (Nat.eqb_spec j i); [exact Ccanc|apply (i_canc s I)].
  - intros j. unfold upd. destruct (Nat.eqb_spec j i); [exact Ctcl|apply (i_tcl s I)].
  - intros j A. rewrite upd_other by lia. apply (i_fresh s I), A.
  - intro y. unfold upd at 1. destruct (Nat.eqb_spec y t) as [->|Hy]; [exact Hpc'|].
    destruct (i_pc s I y) as [K1 K2 K3 K4 K5 K6].
    assert (S : insec (pcs s y) <> None ->
                (mapi s = None -> m = None) /\ (stored (insts s i) = false -> stored v = false)).
    { intro A. destruct Hsec as [B|B]; [exact B|]. destruct (A (B y Hy)). }
    constructor; rewrite ?Hi, ?Hn, ?Hm.
    + intros w E. apply S; [rewrite E; discriminate|]. exact (K1 w E).
    + intros w j E. destruct (K2 w j E) as [A [B C]].
      destruct S as [F G]; [rewrite E; discriminate|]. split; [auto|]. split; [|exact C].
      unfold upd. destruct (Nat.eqb_spec j i) as [->|]; auto.
    + intros j E. destruct (K3 j E) as [A [B C]].
      unfold upd. destruct (Nat.eqb_spec j i) as [->|]; [|auto].
      destruct (Htear y Hy A) as [D F]. rewrite D, F. auto.
    + intros j E. specialize (K4 j E). unfold upd. destruct (Nat.eqb_spec j i) as [->|]; auto.
    + intros w j E. destruct (K5 w j E) as [A B]. split; [|exact B].
      unfold upd. destruct (Nat.eqb_spec j i) as [->|]; auto.
    + intros j E. destruct (K6 j E) as [A B]. split; [|exact B].
      unfold upd. destruct (Nat.eqb_spec j i) as [->|]; auto.
Qed.

Lemma iinv_create s t w : IInv s -> pcs s t = SCreate w ->
  IInv (set_pc (alloc_inst s) t (SStore w (ninst s))).
Proof.
  intros I Hpc.
  assert (Hm : mapi s = None) by (eapply (k_create _ _ _ (i_pc s I t)); eauto).
  assert (Hf : insts s (ninst s) = fresh_inst) by apply (i_fresh s I), le_n.
  constructor; cbn; try solve [apply I].
  - intros i A. destruct (i_map s I i A). split; [lia|assumption].
  - intros i A B. destruct (Nat.eq_dec i (ninst s)) as [->|Hne].
    + exists t, w. apply upd_same.
    + destruct (i_unst s I i ltac:(lia) B) as [x [w' E]]. exists x, w'.
      rewrite upd_other; [exact E|]. intros ->. congruence.
  - intros i x A B. destruct (i_tear s I i x A B) as [C D]. split; [|exact D].
    rewrite upd_other; [exact C|]. intros ->. rewrite Hpc in C. discriminate.
  - intros i A. apply (i_fresh s I). lia.
  - intro x. unfold upd. destruct (Nat.eqb_spec x t) as [->|Hx].
    + constructor; cbn; try discriminate.
      * intros ? ? [= <- <-]. rewrite Hf. cbn. auto.
      * intros ? [|]; discriminate.
    + destruct (i_pc s I x) as [K1 K2 K3 K4 K5 K6]. constructor; cbn; auto.
      * intros w' i E. destruct (K2 _ _ E) as [A [B C]]. auto.
      * intros i E. destruct (K3 _ E) as [A [B C]]. auto.
      * intros w' i E. destruct (K5 _ _ E). auto.
      * intros i E. destruct (K6 _ E). auto.
Qed.

Lemma iinv_store s t w i : SInv s -> IInv s -> pcs s t = SStore w i ->
  let x := insts s i in
  let x' := {| closing := closing x; cstarted := cstarted x; destroyed := destroyed x;
               cancelled := cancelled x; stored := true; tearer := tearer x; cbdone := cbdone x |} in
  IInv (set_pc (set_map (set_inst s i x') (Some i)) t (SExit w (Some i))).
Proof.
  intros SI I Hpc x x'. subst x' x.
  destruct (k_store _ _ _ (i_pc s I t) w i Hpc) as [Hm [Hst Hlt]].
  eapply iinv_inst with (s := s) (t := t) (i := i); try reflexivity; cbn;
    auto using (i_cb s I), (i_canc s I), (i_tcl s I); try easy.
  - (* t at SStore *) intros w' j E. split; congruence.
  - rewrite Hpc. discriminate.
  - (* other map entries *) intros j Hne. rewrite Hm. split; congruence.
  - intros y A B. destruct (i_tear s I i y A B) as [C _]. split; [|reflexivity].
    rewrite upd_other; [exact C|]. intros ->. rewrite Hpc in C. discriminate.
  - now apply pc_ok_triv.
  - (* t is alone in the section *) right. intros y Hy. destruct (insec (pcs s y)) as [w'|] eqn:E; [|reflexivity].
    destruct Hy. eapply (mutex s y t w' w SI); [exact E|rewrite Hpc; reflexivity].
Qed.

Lemma pc_ok_tdpc s t p i :
  tdpc p = Some i -> tearer (insts s i) = Some t -> cbdone (insts s i) = false -> i < ninst s ->
  (p = CCallback i \/ p = DCallback i -> cancelled (insts s i) = true) -> pc_ok s t p.
Proof.
  intros A B C D E.
  assert (F : forall j, tdpc p = Some j -> j = i) by congruence.
  constructor; try (intros; subst; discriminate).
  - intros j G. apply F in G. subst j. auto.
  - intros j G. assert (j = i) by (apply F; destruct G; subst p; reflexivity). subst j. auto.
Qed.

Lemma iinv_gate s t i v p' : IInv s ->
  tdpc (pcs s t) = None -> (forall w j, pcs s t <> SStore w j) ->
  tearer (insts s i) = None -> i < ninst s ->
  closing v = true -> (cstarted v = true \/ destroyed v = true) ->
  cancelled v = cancelled (insts s i) -> stored v = stored (insts s i) ->
  tearer v = Some t -> cbdone v = false ->
  (p' = CFinish i \/ p' = DFinish i) ->
  IInv (set_pc (set_inst s i v) t p').
Proof.
  intros I Htd Hns Hte Hlt Hcl Hcd Hca Hst Htv Hcb Hp'.
  assert (Htd' : tdpc p' = Some i) by (destruct Hp'; subst p'; reflexivity).
  eapply iinv_inst with (s := s) (t := t) (i := i) (v := v); try reflexivity;
    auto; try congruence.
  - intros y A B. assert (y = t) by congruence. subst y. rewrite upd_same. split; [exact Htd'|].
    rewrite Hst. intro C. apply (i_open s I); assumption.
  - apply (pc_ok_tdpc _ _ _ i); cbn; rewrite ?upd_same; auto.
    destruct Hp'; subst p'; intros [|]; discriminate.
  - (* section promises *) left. split; [auto|congruence].
Qed.

Lemma iinv_mark s t i : IInv s -> pcs s t = DMark i -> i < ninst s ->
  let x := insts s i in
  let x' := {| closing := true; cstarted := cstarted x; destroyed := destroyed x;
               cancelled := cancelled x; stored := stored x; tearer := tearer x; cbdone := cbdone x |} in
  IInv (set_pc (set_inst s i x') t (DGate i)).
Proof.
  intros I Hpc Hlt x x'. subst x' x.
  eapply iinv_inst with (s := s) (t := t) (i := i); try reflexivity; cbn;
    auto using (i_open s I), (i_cb s I), (i_canc s I); try congruence.
  - rewrite Hpc. discriminate.
  - intros y A B. destruct (i_tear s I i y A B) as [C D]. split; [|exact D].
    rewrite upd_other; [exact C|]. intros ->. rewrite Hpc in C. discriminate.
  - intro A. split; [reflexivity|]. apply (i_tcl s I), A.
  - constructor; cbn; try discriminate.
    + intros ? [|]; discriminate.
    + intros ? [= <-]. rewrite upd_same. auto.
Qed.

Lemma iinv_finish s t i p p' : IInv s -> pcs s t = p ->
  tdpc p = Some i -> tdpc p' = Some i ->
  let x := insts s i in
  let x' := {| closing := closing x; cstarted := cstarted x; destroyed := destroyed x;
               cancelled := true; stored := stored x; tearer := tearer x; cbdone := cbdone x |} in
  IInv (set_pc (set_inst s i x') t p').
Proof.
  intros I <- Htd Htd' x x'. subst x' x.
  assert (Hns : forall w j, pcs s t <> SStore w j) by (intros w j E; rewrite E in Htd; discriminate).
  destruct (k_tdpc _ _ _ (i_pc s I t) i Htd) as [Hte [Hcb Hlt]].
  eapply iinv_inst with (s := s) (t := t) (i := i); try reflexivity; cbn;
    auto using (i_open s I), (i_tcl s I); try congruence.
  - intros y A B. assert (y = t) by congruence. subst y. rewrite upd_same.
    split; [exact Htd'|]. apply (i_tear s I i t A B).
  - apply (pc_ok_tdpc _ _ _ i); cbn; rewrite ?upd_same; auto.
Qed.

(* the close callback deletes the map entry of the name *)
Lemma iinv_callback s t i p : IInv s -> pcs s t = p ->
  (p = CCallback i \/ p = DCallback i) ->
  let x := insts s i in
  let x' := {| closing := closing x; cstarted := cstarted x; destroyed := destroyed x;
               cancelled := cancelled x; stored := stored x; tearer := tearer x; cbdone := true |} in
  IInv (set_pc (set_map (set_inst s i x') None) t Done).
Proof.
  intros I <- Hpc x x'. subst x' x.
  assert (Htd : tdpc (pcs s t) = Some i) by (destruct Hpc as [E|E]; rewrite E; reflexivity).
  destruct (k_tdpc _ _ _ (i_pc s I t) i Htd) as [Hte [Hcb Hlt]].
  assert (Hca : cancelled (insts s i) = true) by (apply (k_cbpc _ _ _ (i_pc s I t)); exact Hpc).
  assert (Honly : forall j, mapi s = Some j -> j = i).
  { intros j A. destruct (i_tear s I i t Hte Hcb) as [_ D].
    destruct (stored (insts s i)) eqn:S; [specialize (D eq_refl); congruence|].
    destruct (i_unst s I i Hlt S) as [y [w' E]].
    destruct (k_store _ _ _ (i_pc s I y) _ _ E) as [F _]. congruence. }
  eapply iinv_inst with (s := s) (t := t) (i := i); try reflexivity; cbn;
    auto using (i_canc s I), (i_tcl s I); try congruence; try easy.
  - intros w j E. destruct Hpc; congruence.
  - (* other map entries *) intros j Hne. split; [discriminate|]. intro A. destruct (Hne (Honly j A)).
  - now apply pc_ok_triv.
Qed.

(* lets [eauto] see through [leave_fixed] *)
#[local] Hint Resolve leave_iview : core.

(* The instance invariant needs the slot invariant (one thread in the section at SStore) and is
   kept by every step but a Destroy() passing its gate on an instance whose Close() has started.
   The slot-protocol steps leave the instances alone ([iinv_quiet]), the others the slots
   ([sinv_move]). *)
Lemma inv_tstep s t : SInv s ->
  match tstep true s t with
  | Some (s', _) => SInv s' /\ (IInv s -> late_destroy s t = false -> IInv s')
  | None => True
  end.
Proof.
  intros SI. unfold tstep, late_destroy.
  destruct (pcs s t) eqn:Hpc; cbv beta iota zeta; trivial.
  - (* SLoad *)
    destruct (cur s) as [w|] eqn:Hc;
      (split; [|intros; eapply iinv_quiet; eauto]).
    + apply (sinv_frame s); auto; rewrite ?Hpc; auto.
      intros w' [= <-]. apply (s_cur s SI), Hc.
    + apply (sinv_frame (alloc_slot s)); auto using sinv_alloc; cbn; rewrite ?Hpc; auto.
      intros w' [= <-]. lia.
  - (* SLock *)
    destruct (dead (slots s w)) eqn:Hd;
      [|destruct (ready (slots s w)) eqn:Hrd; [destruct (abort s t)|]];
      (split; [|intros; eapply iinv_quiet; eauto]).
    + apply (sinv_frame s); auto; rewrite ?Hpc; auto. discriminate.
    + apply sinv_lock_leave; assumption.
    + apply sinv_lock_wait; assumption.
    + apply sinv_lock_enter; assumption.
  - (* SWait *)
    destruct (Nat.eqb (gen (slots s w)) g); [trivial|].
    destruct (ready (slots s w)) eqn:Hrd; [destruct (abort s t)|];
      (split; [|intros; eapply iinv_quiet; eauto]).
    + apply sinv_leave; rewrite ?Hpc; auto. discriminate.
    + eapply sinv_move; eauto.
    + eapply sinv_wait_enter; eauto.
  - (* SBody *)
    destruct (abort s t); [|destruct (mapi s) as [i|] eqn:Hm];
      (split; [eapply sinv_move; eauto|intros I _; eapply iinv_frame; eauto; try easy]).
    + now apply pc_ok_triv.
    + constructor; try discriminate.
      * intros ? [|]; discriminate.
      * intros ? ? [= _ <-]. destruct (i_map s I _ Hm). auto.
    + constructor; try discriminate.
      * intros _ _. exact Hm.
      * intros ? [|]; discriminate.
  - (* SFound *)
    destruct (closing (insts s i));
      (split; [eapply sinv_move; eauto|intros; eapply iinv_quiet; eauto]).
  - (* SWaitClose *)
    destruct (cancelled (insts s i)); [|destruct (abort s t); [|trivial]];
      (split; [eapply sinv_move; eauto|intros; eapply iinv_quiet; eauto]).
  - (* SCreate *)
    split; [eapply sinv_move; eauto|intros; apply iinv_create; assumption].
  - (* SStore *)
    split; [eapply sinv_move; eauto|intros; apply iinv_store; assumption].
  - (* SExit *)
    split; [|intros; eapply iinv_quiet; eauto].
    apply sinv_leave; rewrite ?Hpc; auto.
  - (* CGate *)
    destruct (Nat.ltb_spec i (ninst s)) as [Hlt|]; [|trivial].
    destruct (closing (insts s i)) eqn:Hcl;
      (split; [eapply sinv_move; eauto|intros I _]).
    + eapply iinv_quiet; eauto.
    + apply iinv_gate; rewrite ?Hpc; auto using untouched; easy.
  - (* CFinish *)
    split; [eapply sinv_move; eauto|intros; eapply iinv_finish; eauto].
  - (* CCallback *)
    split; [eapply sinv_move; eauto|intros; eapply iinv_callback; eauto].
  - (* DMark *)
    destruct (Nat.ltb_spec i (ninst s)) as [Hlt|]; [|trivial].
    split; [eapply sinv_move; eauto|intros; apply iinv_mark; auto].
  - (* DGate *)
    destruct (destroyed (insts s i)) eqn:Hde;
      (split; [eapply sinv_move; eauto|intros I Hok]).
    + eapply iinv_quiet; eauto.
    + destruct (k_dgate _ _ _ (i_pc s I t) i Hpc) as [Hcl Hlt].
      apply iinv_gate; rewrite ?Hpc; auto; try easy.
      apply untouched; [exact I|]. destruct (cstarted (insts s i)); [discriminate|auto].
  - (* DFinish *)
    split; [eapply sinv_move; eauto|intros; eapply iinv_finish; eauto].
  - (* DCallback *)
    split; [eapply sinv_move; eauto|intros; eapply iinv_callback; eauto].
  - (* KCancel *)
    split; [eapply sinv_move; eauto|intros; eapply iinv_quiet; eauto].
Qed.

Lemma start_reg p : reg (start p) = None /\ insec (start p) = None /\ sref (start p) = None.
Proof. destruct p; simpl; auto. Qed.

Lemma inv_init progs : Inv (init progs).
Proof.
  split.
  - constructor; cbn.
    + discriminate.
    + intros w A. lia.
    + reflexivity.
    + reflexivity.
    + intros w. constructor.
    + intros w t. destruct (start_reg (progs t)) as [A _]. rewrite A. split; [intros []|discriminate].
    + reflexivity.
    + intros w t. destruct (start_reg (progs t)) as [_ [A _]]. rewrite A. discriminate.
    + intros t w. destruct (start_reg (progs t)) as [_ [_ A]]. rewrite A. discriminate.
  - constructor; cbn; try discriminate.
    + intros i A. lia.
    + intros i A. congruence.
    + reflexivity.
    + intro t. apply pc_ok_triv. now destruct (progs t).
Qed.

Lemma inv_run sched : forall s, SInv s ->
  SInv (run true s sched) /\
  (IInv s -> no_late_destroy true s sched = true -> IInv (run true s sched)).
Proof.
  induction sched as [|t r IH]; intros s SI; simpl; [auto|].
  assert (T := inv_tstep s t SI). destruct (tstep true s t) as [[s' l]|].
  - destruct T as [SI' II']. destruct (IH s' SI') as [A B].
    split; [exact A|]. intros I H. apply andb_true_iff in H. destruct H as [H1 H2].
    apply negb_true_iff in H1. auto.
  - destruct (IH s SI) as [A B]. split; [exact A|]. intros I H. apply andb_true_iff in H.
    apply B; tauto.
Qed.

Lemma sinv_reach progs sched : SInv (run true (init progs) sched).
Proof. apply inv_run, inv_init. Qed.

Lemma inv_reach progs sched :
  no_late_destroy true (init progs) sched = true -> Inv (run true (init progs) sched).
Proof.
  intro H. split; [apply sinv_reach|]. destruct (inv_init progs) as [SI I]. apply inv_run; assumption.
Qed.

Lemma live_where s k : IInv s -> live s k ->
  mapi s = Some k \/ (mapi s = None /\ exists x w, pcs s x = SStore w k).
Proof.
  intros I [Lk Ck]. destruct (stored (insts s k)) eqn:Sk.
  - left. destruct (tearer (insts s k)) as [x|] eqn:T; [|apply (i_open s I); assumption].
    destruct (cbdone (insts s k)) eqn:B.
    + apply (i_cb s I) in B. congruence.
    + apply (i_tear s I k x T B), Sk.
  - right. destruct (i_unst s I k Lk Sk) as [x [w E]]. split; [|eauto].
    apply (k_store _ _ _ (i_pc s I x) _ _ E).
Qed.

Lemma inv_single s : Inv s -> forall i j, live s i -> live s j -> i = j.
Proof.
  intros [SI I] i j Li Lj.
  destruct (live_where s i I Li) as [A|[A [x [w E]]]], (live_where s j I Lj) as [B|[B [y [w' F]]]];
    try congruence.
  destruct (mutex s x y w w' SI) as [<- _]; [rewrite E; reflexivity|rewrite F; reflexivity|].
  congruence.
Qed.

Lemma count_live_0 s n :
  (forall i, i < n -> cancelled (insts s i) = true) -> count_live s n = 0.
Proof. induction n as [|k IH]; intro H; simpl; [reflexivity|]. rewrite (H k), IH; auto. Qed.

Lemma live_count s n : (forall i j, i < n -> j < n -> cancelled (insts s i) = false ->
                          cancelled (insts s j) = false -> i = j) -> count_live s n <= 1.
Proof.
  induction n as [|k IH]; intro H; simpl; [lia|].
  destruct (cancelled (insts s k)) eqn:C.
  - apply IH. intros i j A B. apply H; lia.
  - rewrite count_live_0; [lia|]. intros i A.
    destruct (cancelled (insts s i)) eqn:Ci; [reflexivity|].
    assert (i = k) by (apply H; try lia; assumption). lia.
Qed.

Lemma inv_nlive s : Inv s -> nlive s <= 1.
Proof.
  intro I. apply live_count. intros i j A B C D. apply (inv_single s I); split; assumption.
Qed.

Lemma inv_returns_current s t w i : IInv s ->
  pcs s t = SFound w i -> closing (insts s i) = false -> mapi s = Some i /\ live s i.
Proof.
  intros I Hpc Hcl.
  destruct (k_found _ _ _ (i_pc s I t) _ _ Hpc) as [Hst Hlt].
  assert (T : tearer (insts s i) = None) by auto using untouched.
  split; [apply (i_open s I); assumption|]. split; [exact Hlt|].
  destruct (cancelled (insts s i)) eqn:C; [|reflexivity].
  apply (i_canc s I) in C. congruence.
Qed.

(* non-vacuity: the old-accounting witness schedule satisfies the hypothesis, with a waiting
   summoner and a destroy in it *)
Example summon_hyp_satisfiable :
  let s := run true (init (progs_of witness_progs)) witness_old in
  no_late_destroy true (init (progs_of witness_progs)) witness_old = true /\
  ninst s = 2 /\ nlive s = 1 /\ mapi s = None.
Proof. vm_compute. auto. Qed.
