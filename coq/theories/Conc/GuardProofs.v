(* Invariants of the guard model with monotone ids (reset = false), for every trace of any
   number of clients, and the witness trace against reset = true (evaluated in Props/C15.v).
   The steps preserve [Lineup]; [Inv], the facts the properties are read off, follows from it. *)
From HV Require Import Base.Prelude Conc.Guard.
From Coq Require Import Sorted.
Local Open Scope Z_scope.

Definition ids (l : list (client * Z)) : list Z := map snd l.

Lemma ss_app {A} (R : A -> A -> Prop) l1 l2 :
  StronglySorted R (l1 ++ l2) <->
  StronglySorted R l1 /\ StronglySorted R l2 /\ forall x y, In x l1 -> In y l2 -> R x y.
Proof.
  induction l1 as [|a t IH]; simpl.
  - split; [intro H; repeat split; [constructor|exact H|intros x y []] | intros [_ [H _]]; exact H].
  - split.
    + intro H. inversion H as [|? ? Hs Hf]; subst. apply IH in Hs as [H1 [H2 H3]].
      apply Forall_app in Hf as [Hf1 Hf2]. rewrite Forall_forall in Hf2.
      repeat split; [constructor; assumption|assumption|].
      intros x y [<-|Hx] Hy; auto.
    + intros [H1 [H2 H3]]. inversion H1 as [|? ? Hs Hf]; subst. constructor.
      * apply IH. auto.
      * apply Forall_app. split; [assumption|]. apply Forall_forall. auto.
Qed.

Lemma ss_snoc {A} (R : A -> A -> Prop) l x :
  StronglySorted R l -> Forall (fun y => R y x) l -> StronglySorted R (l ++ [x]).
Proof.
  intros Hs Hf. rewrite Forall_forall in Hf. apply ss_app.
  repeat split; [exact Hs|repeat constructor|intros y ? Hy [<-|[]]; auto].
Qed.

Lemma ss_lt_nodup (l : list Z) : StronglySorted Z.lt l -> NoDup l.
Proof.
  induction 1 as [|a t _ IH Hf]; constructor; [|exact IH].
  intro Hi. rewrite Forall_forall in Hf. apply Hf in Hi. lia.
Qed.

Lemma nodup_ids_inj l c c' id : NoDup (ids l) -> In (c, id) l -> In (c', id) l -> c = c'.
Proof.
  induction l as [|[a i] t IH]; simpl; intros Hn H1 H2; [tauto|].
  inversion Hn as [|? ? Hni Hnt]; subst.
  destruct H1 as [E1|H1], H2 as [E2|H2].
  - congruence.
  - inversion E1; subst. exfalso. apply Hni, (in_map snd _ _ H2).
  - inversion E2; subst. exfalso. apply Hni, (in_map snd _ _ H1).
  - eauto.
Qed.

Lemma pair_eqb_eq a b : pair_eqb a b = true <-> a = b.
Proof.
  destruct a as [c i], b as [c' i']. unfold pair_eqb; simpl.
  rewrite andb_true_iff, Nat.eqb_eq, Z.eqb_eq. split; [intros [-> ->]; reflexivity|intro E; inversion E; auto].
Qed.

Lemma pair_eqb_refl x : pair_eqb x x = true.
Proof. apply pair_eqb_eq. reflexivity. Qed.

Lemma mem_pair_in x l : mem_pair x l = true <-> In x l.
Proof.
  unfold mem_pair. rewrite existsb_exists. split.
  - intros [y [Hy E]]. apply pair_eqb_eq in E; subst; assumption.
  - intro H. exists x. split; [assumption|apply pair_eqb_refl].
Qed.

Lemma lookup_client_in c l id : lookup_client c l = Some id -> In (c, id) l.
Proof.
  induction l as [|[c' i] t IH]; simpl; [discriminate|].
  destruct (Nat.eqb c c') eqn:E.
  - apply Nat.eqb_eq in E; subst. intro H; inversion H; subst. left; reflexivity.
  - intro H. right. apply IH. assumption.
Qed.

Lemma remove_first_head x l : remove_first x (x :: l) = l.
Proof. simpl. rewrite pair_eqb_refl. reflexivity. Qed.

Lemma remove_first_absent x l : ~ In x l -> remove_first x l = l.
Proof.
  induction l as [|y t IH]; simpl; intro H; [reflexivity|].
  destruct (pair_eqb x y) eqn:E.
  - apply pair_eqb_eq in E. subst. tauto.
  - f_equal. apply IH. tauto.
Qed.

Lemma remove_first_other x l p : In p l -> p <> x -> In p (remove_first x l).
Proof.
  induction l as [|y t IH]; simpl; [tauto|].
  intros [->|Hi] Hne.
  - destruct (pair_eqb x p) eqn:E; [apply pair_eqb_eq in E; congruence| left; reflexivity].
  - destruct (pair_eqb x y); [assumption| right; apply IH; assumption].
Qed.

Theorem guard_release_non_head_noop reset (s : gst) id :
  g_head s <> Some id -> g_release reset s id = s.
Proof.
  unfold g_head, g_release. destruct (queue s) as [|h t]; intro H; [reflexivity|].
  destruct (Z.eqb h id) eqn:E; [|reflexivity]. apply Z.eqb_eq in E; subst. congruence.
Qed.

Lemma g_release_head s id t :
  queue s = id :: t -> g_release false s id = {| queue := t; largest := largest s |}.
Proof. intro E. unfold g_release. rewrite E, Z.eqb_refl. destruct t; reflexivity. Qed.

Lemma startn_is_startw_return reset s c :
  queue (g s) = [] -> pend s = [] ->
  step reset s (EStartN c) =
  match step reset s (EStartW c) with Some s1 => step reset s1 (EReturn c) | None => None end.
Proof.
  intros Eq Ep. simpl. rewrite Eq, Ep. simpl.
  rewrite Nat.eqb_refl. unfold g_head. simpl. rewrite Z.eqb_refl, pair_eqb_refl. reflexivity.
Qed.

(* The queue is the holder, if any, followed by the waiters in arrival order; the ids issued
   so far - those returned, then those still waiting - increase in the order of issue. *)
Record Lineup (s : st) : Prop := {
  L_queue : queue (g s) = ids (held s) ++ ids (pend s);
  L_one   : (length (held s) <= 1)%nat;
  L_held  : incl (held s) (ret s);
  L_incr  : StronglySorted Z.lt (ids (ret s) ++ ids (pend s));
  L_range : Forall (fun x => 0 < x <= largest (g s)) (ids (ret s) ++ ids (pend s));
  L_lpos  : 0 <= largest (g s)
}.

Lemma lineup_init : Lineup init.
Proof. constructor; simpl; [reflexivity|lia|apply incl_refl|constructor|constructor|lia]. Qed.

(* C15 reads mutual exclusion off [I_held_h] and arrival order off [I_ret_inc] and [I_fifo];
   [I_disj], [I_ret_nd], [I_pend_nd] and [I_held_r] serve the release and return steps below; the
   other seven clauses are read by no proof. *)
Record Inv (s : st) : Prop := {
  I_sorted : StronglySorted Z.lt (queue (g s));
  I_range  : Forall (fun x => 0 < x <= largest (g s)) (queue (g s));
  I_lpos   : 0 <= largest (g s);
  I_pend_q : forall c id, In (c, id) (pend s) -> In id (queue (g s));
  I_pend_nd: NoDup (ids (pend s));
  I_ret_nd : NoDup (ids (ret s));
  I_ret_le : Forall (fun x => x <= largest (g s)) (ids (ret s));
  I_disj   : forall id, In id (ids (pend s)) -> ~ In id (ids (ret s));
  I_held_r : forall p, In p (held s) -> In p (ret s);
  I_held_nd: NoDup (held s);
  I_held_h : forall c id, In (c, id) (held s) -> g_head (g s) = Some id;
  I_q_cover: forall id, In id (queue (g s)) -> In id (ids (pend s)) \/ In id (ids (held s));
  I_fifo   : forall r q, In r (ids (ret s)) -> In q (ids (pend s)) -> r < q;
  I_ret_inc: StronglySorted Z.lt (ids (ret s))
}.

Lemma lineup_inv s : Lineup s -> Inv s.
Proof.
  intros [Hq H1 Hh Hi Hr Hl].
  apply ss_app in Hi as [Sr [Sp Hrp]]. apply Forall_app in Hr as [Rr Rp].
  assert (Hhr : incl (ids (held s)) (ids (ret s))) by (apply incl_map; exact Hh).
  constructor.
  - (* I_sorted *) rewrite Hq. apply ss_app. repeat split; [|exact Sp|intros x y Hx; apply Hrp, Hhr, Hx].
    destruct (held s) as [|p [|]]; [repeat constructor..|simpl in H1; lia].
  - (* I_range *) rewrite Hq. apply Forall_app. split; [|exact Rp].
    rewrite Forall_forall in *. intros x Hx. apply Rr, Hhr, Hx.
  - exact Hl.
  - (* I_pend_q *) intros c id Hp. rewrite Hq. apply in_or_app. right. exact (in_map snd _ _ Hp).
  - (* I_pend_nd *) apply ss_lt_nodup, Sp.
  - (* I_ret_nd *) apply ss_lt_nodup, Sr.
  - (* I_ret_le *) eapply Forall_impl; [|exact Rr]. simpl; intros; lia.
  - (* I_disj *) intros id Hp Hr. specialize (Hrp _ _ Hr Hp). lia.
  - exact Hh.
  - (* I_held_nd *) destruct (held s) as [|p [|]]; [constructor|constructor; [intros []|constructor]|simpl in H1; lia].
  - (* I_held_h *) intros c id Hc. unfold g_head. rewrite Hq.
    destruct (held s) as [|p [|]]; [destruct Hc|destruct Hc as [->|[]]; reflexivity|simpl in H1; lia].
  - (* I_q_cover *) intros id Hi. rewrite Hq in Hi. apply in_app_or in Hi. tauto.
  - (* I_fifo *) exact Hrp.
  - exact Sr.
Qed.

Lemma inv_init : Inv init.
Proof. exact (lineup_inv _ lineup_init). Qed.

Lemma held_at_most_one s : Lineup s -> forall p q, In p (held s) -> In q (held s) -> p = q.
Proof.
  intros L p q Hp Hq. pose proof (L_one _ L) as H1.
  destruct (held s) as [|x [|]]; [destruct Hp| |simpl in H1; lia].
  destruct Hp as [<-|[]], Hq as [<-|[]]. reflexivity.
Qed.

Lemma lineup_head s h :
  Lineup s -> g_head (g s) = Some h ->
  (exists c, held s = [(c, h)]) \/ (held s = [] /\ exists c t, pend s = (c, h) :: t).
Proof.
  intros [Hq H1 _ _ _ _]. unfold g_head. rewrite Hq.
  destruct (held s) as [|[c i] [|]]; simpl; [|intro E; inversion E; eauto|simpl in H1; lia].
  destruct (pend s) as [|[c i] t]; simpl; intro E; inversion E. eauto.
Qed.

(* a stale or duplicate release: such an id is not at the head *)
Lemma nonholder_release s c id :
  Lineup s -> In (c, id) (ret s) -> ~ In (c, id) (held s) ->
  g_release false (g s) id = g s /\ remove_first (c, id) (held s) = held s.
Proof.
  intros L Hr Hnh. split; [|apply remove_first_absent, Hnh].
  apply guard_release_non_head_noop. intro Eh. pose proof (lineup_inv _ L) as I.
  destruct (lineup_head _ _ L Eh) as [[c' E]|[_ [c' [t E]]]].
  - (* the holder's id was returned to the holder only *)
    assert (Hh : In (c', id) (held s)) by (rewrite E; left; reflexivity).
    apply Hnh. rewrite (nodup_ids_inj _ c c' id (I_ret_nd _ I) Hr (I_held_r _ I _ Hh)). exact Hh.
  - (* a waiter's id has not been returned yet *)
    apply (I_disj _ I id); [rewrite E; left; reflexivity|exact (in_map snd _ _ Hr)].
Qed.

Lemma lineup_startw reset s c s' : Lineup s -> step reset s (EStartW c) = Some s' -> Lineup s'.
Proof.
  intros [Hq H1 Hh Hi Hr Hl] Hst. simpl in Hst.
  destruct (lookup_client c (pend s)); [discriminate|]. injection Hst as <-.
  constructor; simpl; unfold ids in *; rewrite ?map_app, ?app_assoc.
  - rewrite Hq. reflexivity.
  - exact H1.
  - exact Hh.
  - apply ss_snoc; [exact Hi|]. eapply Forall_impl; [|exact Hr]. simpl; intros; lia.
  - apply Forall_app. split; [|repeat constructor; simpl; lia].
    eapply Forall_impl; [|exact Hr]. simpl; intros; lia.
  - lia.
Qed.

Lemma return_enabled s c id :
  Lineup s -> lookup_client c (pend s) = Some id -> g_head (g s) = Some id ->
  held s = [] /\ exists t, pend s = (c, id) :: t.
Proof.
  intros L El Eh. pose proof (lineup_inv _ L) as I. apply lookup_client_in in El.
  destruct (lineup_head _ _ L Eh) as [[c' E]|[Hh [c0 [t E]]]].
  - exfalso. apply (I_disj _ I id); [exact (in_map snd _ _ El)|].
    apply (in_map snd _ (c', id)), (I_held_r _ I). rewrite E. left; reflexivity.
  - split; [exact Hh|]. exists t.
    rewrite (nodup_ids_inj _ c c0 id (I_pend_nd _ I) El); [exact E|rewrite E; left; reflexivity].
Qed.

Lemma lineup_return reset s c s' : Lineup s -> step reset s (EReturn c) = Some s' -> Lineup s'.
Proof.
  intros L Hst. simpl in Hst.
  destruct (lookup_client c (pend s)) as [id|] eqn:El; [|discriminate].
  destruct (g_head (g s)) as [h|] eqn:Eh; [|discriminate].
  destruct (Z.eqb id h) eqn:E; [|discriminate]. apply Z.eqb_eq in E; subst h.
  destruct (return_enabled _ _ _ L El Eh) as [Hh [t Hp]]. destruct L as [Hq H1 _ Hi Hr Hl].
  injection Hst as <-. rewrite Hh, Hp in *. rewrite remove_first_head.
  (* the id moves from the front of the waiters to the holder's place and to the end of the
     issue log: queue and issued ids stay what they were *)
  constructor; simpl; unfold ids in *.
  - exact Hq.
  - lia.
  - apply incl_appr, incl_refl.
  - rewrite map_app, <- app_assoc. exact Hi.
  - rewrite map_app, <- app_assoc. exact Hr.
  - exact Hl.
Qed.

Lemma lineup_startn reset s c s' : Lineup s -> step reset s (EStartN c) = Some s' -> Lineup s'.
Proof.
  intros L Hst. destruct (queue (g s)) eqn:Eq.
  - assert (Ep : pend s = []).
    { pose proof (L_queue _ L) as Hq. rewrite Eq in Hq. symmetry in Hq.
      apply app_eq_nil in Hq as [_ Hq]. apply map_eq_nil in Hq. exact Hq. }
    rewrite (startn_is_startw_return _ _ _ Eq Ep) in Hst.
    destruct (step reset s (EStartW c)) as [s1|] eqn:E1; [|discriminate].
    eapply lineup_return; [eapply lineup_startw|]; eassumption.
  - simpl in Hst. rewrite Eq in Hst. injection Hst as <-. exact L.
Qed.

Lemma lineup_release s c id s' :
  Lineup s -> In (c, id) (ret s) -> step false s (ERelease c id) = Some s' -> Lineup s'.
Proof.
  intros L Hr Hst. simpl in Hst. injection Hst as <-.
  destruct (mem_pair (c, id) (held s)) eqn:Hh.
  - (* the holder releases *)
    apply mem_pair_in in Hh. destruct L as [Hq H1 _ Hi Hrg Hl].
    destruct (held s) as [|p [|]]; [destruct Hh|destruct Hh as [->|[]]|simpl in H1; lia].
    simpl in Hq. rewrite (g_release_head _ _ _ Hq), remove_first_head.
    constructor; simpl.
    + reflexivity.
    + lia.
    + intros p [].
    + exact Hi.
    + exact Hrg.
    + exact Hl.
  - assert (Hnh : ~ In (c, id) (held s)) by (rewrite <- mem_pair_in, Hh; discriminate).
    destruct (nonholder_release _ _ _ L Hr Hnh) as [-> ->]. destruct s; exact L.
Qed.

Lemma lineup_step s e s' :
  Lineup s -> own_release s e = true -> step false s e = Some s' -> Lineup s'.
Proof.
  intros L Hown. destruct e as [c|c|c|c id].
  - apply lineup_startw, L.
  - apply lineup_return, L.
  - apply lineup_startn, L.
  - apply lineup_release; [exact L|apply mem_pair_in, Hown].
Qed.

Lemma run_lineup tr : forall s s',
  Lineup s -> own_trace false s tr = true -> run false s tr = Some s' -> Lineup s'.
Proof.
  induction tr as [|e t IH]; simpl; intros s s' L Ho Hr.
  - injection Hr as <-. assumption.
  - apply andb_true_iff in Ho as [Ho1 Ho2].
    destruct (step false s e) as [s1|] eqn:Es; [|discriminate].
    eapply IH; [eapply lineup_step; eassumption|assumption|assumption].
Qed.

Lemma issued_le s :
  Lineup s -> forall x, In x (ids (ret s)) \/ In x (ids (pend s)) -> x <= largest (g s).
Proof.
  intros L x Hx. apply in_or_app in Hx.
  pose proof (L_range _ L) as H. rewrite Forall_forall in H. apply H in Hx. lia.
Qed.

(* against the pinned commit's id policy (reset to 0 when the queue empties) *)
Definition witness_reset : list ev :=
  [EStartW 0%nat; EReturn 0%nat; ERelease 0%nat 1;      (* A acquires id 1 and releases it *)
   EStartW 1%nat; EReturn 1%nat;                         (* B acquires: id 1 again *)
   ERelease 0%nat 1;                                     (* A releases its stale id: pops B *)
   EStartW 2%nat; EReturn 2%nat].                        (* C acquires while B is still inside *)

(* with monotone ids the same client programs are harmless: C's return is not enabled (so the
   full witness is not a trace) and B is still the only holder *)
Example witness_monotone_ok :
  run false init witness_reset = None /\
  option_map (fun s => (held s, pend s)) (run false init (removelast witness_reset))
    = Some ([(1%nat, 2)], [(2%nat, 3)]).
Proof. split; vm_compute; reflexivity. Qed.

(* non-vacuity: three clients, queueing, duplicate and stale releases *)
Definition nonvacuous_trace : list ev :=
  [EStartW 0%nat; EReturn 0%nat; EStartW 1%nat; EStartN 2%nat; EStartW 2%nat;
   ERelease 0%nat 1; ERelease 0%nat 1; EReturn 1%nat; ERelease 0%nat 1;
   ERelease 1%nat 2; EReturn 2%nat].
Example nonvacuous :
  own_trace false init nonvacuous_trace = true /\
  option_map (fun s => (held s, queue (g s))) (run false init nonvacuous_trace)
    = Some ([(2%nat, 3)], [3]).
Proof. split; vm_compute; reflexivity. Qed.
