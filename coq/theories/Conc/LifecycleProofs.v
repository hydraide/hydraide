(* Conc/LifecycleProofs.v — for all inputs: what the flush performed by Close()/GracefulStop
   makes durable, in terms of the last buffered operation of every key ([flush_spec]); two closed
   examples. *)
From HV Require Import Base.Prelude Conc.Lifecycle.

Lemma mem_add_same k l : mem_nat k (add_key k l) = true.
Proof.
  unfold add_key. destruct (mem_nat k l) eqn:E; [exact E|]. simpl. rewrite Nat.eqb_refl. reflexivity.
Qed.
Lemma mem_add_other k x l : x <> k -> mem_nat x (add_key k l) = mem_nat x l.
Proof.
  intro H. unfold add_key. destruct (mem_nat k l); [reflexivity|]. simpl.
  apply Nat.eqb_neq in H. rewrite H. reflexivity.
Qed.
Lemma mem_del_same k l : mem_nat k (del_key k l) = false.
Proof.
  induction l as [|a l IH]; simpl; [reflexivity|].
  destruct (Nat.eqb_spec a k) as [->|Hne]; simpl; [exact IH|].
  destruct (Nat.eqb_spec k a) as [->|_]; [congruence|exact IH].
Qed.
Lemma mem_del_other k x l : x <> k -> mem_nat x (del_key k l) = mem_nat x l.
Proof.
  intro H. induction l as [|a l IH]; simpl; [reflexivity|].
  destruct (Nat.eqb_spec a k) as [->|Hne]; simpl.
  - apply Nat.eqb_neq in H. rewrite H. exact IH.
  - rewrite IH. reflexivity.
Qed.

(* the last buffered operation on key k, if any: Some true = write, Some false = delete *)
Fixpoint last_op (k : nat) (pend : list (bool * nat)) (acc : option bool) : option bool :=
  match pend with
  | [] => acc
  | (w, k') :: r => last_op k r (if Nat.eqb k' k then Some w else acc)
  end.

Lemma last_op_acc k r : forall acc,
  last_op k r acc = match last_op k r None with Some w => Some w | None => acc end.
Proof.
  induction r as [|[w k'] r IH]; intro acc; simpl; [reflexivity|].
  destruct (Nat.eqb k' k).
  - rewrite (IH (Some w)). destruct (last_op k r None); reflexivity.
  - apply IH.
Qed.

Lemma flush_spec : forall pend dsk k,
  mem_nat k (flush dsk pend) =
  match last_op k pend None with Some w => w | None => mem_nat k dsk end.
Proof.
  induction pend as [|[w k'] r IH]; intros dsk k; simpl; [reflexivity|].
  destruct (Nat.eqb_spec k' k) as [->|Hne]; destruct w; rewrite IH.
  - rewrite (last_op_acc k r (Some true)). destruct (last_op k r None); [reflexivity|apply mem_add_same].
  - rewrite (last_op_acc k r (Some false)). destruct (last_op k r None); [reflexivity|apply mem_del_same].
  - rewrite mem_add_other by congruence. reflexivity.
  - rewrite mem_del_other by congruence. reflexivity.
Qed.

(* the idle-close schedule [w_ii], which loses the acknowledged record when the swamp has a
   write interval, does not lose it in immediate-write mode ([wi0 = true]; as the real code) *)
Example idle_close_immediate_mode_survives :
  survives (run true 1 (init (progs_of w_ii_progs)) w_ii) = true.
Proof. vm_compute. reflexivity. Qed.

Example flush_example :
  last_op 3 [(true, 3); (false, 3); (true, 5); (true, 3)] None = Some true /\
  flush [7] [(true, 3); (false, 3); (true, 5); (true, 3)] = [3; 5; 7].
Proof. vm_compute. auto. Qed.
