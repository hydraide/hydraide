(* Record/GobProofs.v — theorems about Record/Treasure.v + Record/Gob.v (C05): one value through
   ConvertToByte -> gob -> LoadFromByte ([persist_value_fixed], [persist_value_old]), then whole
   states under reload ([reload_id]).  Section [Law] takes gob with its zero-omission law. *)
From HV Require Import Base.Prelude Record.Treasure Record.Gob.
Local Open Scope Z_scope.

Lemma list_eqb_refl {A} (eqb : A -> A -> bool) (H : forall x, eqb x x = true) l : list_eqb eqb l l = true.
Proof. induction l as [|x t IH]; simpl; [reflexivity|]. rewrite H, IH. reflexivity. Qed.

(* LoadFromByte leaves a Content without hint as it is, up to the hint fields *)
Lemma restore_zero_nohint c : c_zero_of c = 0%N -> of_content (restore_zero c) = of_content c.
Proof.
  unfold restore_zero. intros ->.
  (* normalise first: comparing the two towers of matches of [of_content] as they stand is slow *)
  lazy. reflexivity.
Qed.

Section Law.
Variable gob : content -> content.
Hypothesis gob_law : forall c, gob c = gob_spec c.

(* current code: every value of every content type comes back as it was stored *)
Lemma persist_value_fixed : forall v, persist_value gob true v = v.
Proof.
  intros v. unfold persist_value. rewrite gob_law.
  (* a float is zero-like when its pattern is 0 or -0.0: decide the second, then the sign of the
     pattern decides the first; what is left is a positive pattern known not to be -0.0, and
     that test shows up twice: in the hint of [to_wire] and, once that is decided, in gob's drop *)
  pattern v. set (P := fun _ => _).
  assert (F32 : forall b, P (VF32 b)).
  { intros b. unfold P. destruct (Z.eqb_spec b f32_neg_zero) as [->|H%Z.eqb_neq]; [reflexivity|].
    destruct b; try reflexivity. cbn in H |- *. rewrite H. cbn. rewrite H. reflexivity. }
  assert (F64 : forall b, P (VF64 b)).
  { intros b. unfold P. destruct (Z.eqb_spec b f64_neg_zero) as [->|H%Z.eqb_neq]; [reflexivity|].
    destruct b; try reflexivity. cbn in H |- *. rewrite H. cbn. rewrite H. reflexivity. }
  (* every other zero test computes once the head constructor of the payload [n] is known *)
  destruct v as [|n|n|n|n|n|n|n|n|b|b|n|n|n|n];
    [reflexivity| | | | | | | | |apply F32|apply F64| | | | ]; destruct n; reflexivity.
Qed.

(* pinned commit: exactly the zero-like values lose their type *)
Lemma persist_value_old : forall v,
  persist_value gob false v = if is_gob_zero v then VVoid else v.
Proof.
  intros v. unfold persist_value. rewrite gob_law.
  pattern v. set (P := fun _ => _).
  assert (F32 : forall b, P (VF32 b)). { intros b. unfold P. cbn. destruct (zero_f32 b); reflexivity. }
  assert (F64 : forall b, P (VF64 b)). { intros b. unfold P. cbn. destruct (zero_f64 b); reflexivity. }
  destruct v as [|n|n|n|n|n|n|n|n|b|b|n|n|n|n];
    [reflexivity| | | | | | | | |apply F32|apply F64| | | | ]; destruct n; reflexivity.
Qed.

Lemma persist_fixed r : persist gob true r = r.
Proof. destruct r. unfold persist. cbn. rewrite persist_value_fixed. reflexivity. Qed.

Lemma lookup_reload fixed s k :
  lookup k (reload gob fixed s) = option_map (persist gob fixed) (lookup k s).
Proof.
  induction s as [|[k' r] t IH]; simpl; [reflexivity|].
  destruct (N.eqb k k'); [reflexivity | exact IH].
Qed.

Lemma reload_id : forall s, reload gob true s = s.
Proof.
  intros s. unfold reload. induction s as [|[k r] t IH]; simpl; [reflexivity|].
  rewrite persist_fixed, IH. reflexivity.
Qed.

(* closes in the middle of a history (and the ticks and flush windows, which are no-ops) are
   invisible, from any state *)
Definition is_reload (o : op) : bool := match o with OReload | OTick | OWin _ => true | _ => false end.
Lemma run_from_drop_reloads : forall h s,
  fold_left (step gob true) h s = fold_left (step gob true) (filter (fun o => negb (is_reload o)) h) s.
Proof.
  induction h as [|o t IH]; intros s; [reflexivity|].
  destruct o; cbn [filter is_reload negb fold_left]; try apply IH.
  cbn [step]. rewrite reload_id. apply IH.
Qed.

(* the states the pinned commit reloaded correctly: those storing no zero-like value *)
Definition no_zero_values (s : state) : Prop := forall k r, lookup k s = Some r -> is_gob_zero (r_val r) = false.
Lemma reload_seen_old s : no_zero_values s -> forall k, seen (reload gob false s) k = seen s k.
Proof.
  intros Hnz k. unfold seen. rewrite lookup_reload.
  destruct (lookup k s) as [r|] eqn:E; [|reflexivity]. cbn.
  unfold persist. rewrite persist_value_old, (Hnz k r E). destruct r; reflexivity.
Qed.
End Law.

(* the law is satisfiable (by gob_spec itself), so none of the above is vacuous *)
Example law_satisfiable : forall h k, seen (reload gob_spec true (run gob_spec true h)) k = seen (run gob_spec true h) k.
Proof. intros h k. rewrite (reload_id gob_spec (fun c => eq_refl)). reflexivity. Qed.

(* test values for C05_exhaustive_types: a zero-like value of each of the 14 non-void content
   types (both float zeros), and one other value of each of the 15 *)
Definition zero_values : list value :=
  [VU8 0; VU16 0; VU32 0; VU64 0; VI8 0; VI16 0; VI32 0; VI64 0; VF32 0; VF32 f32_neg_zero;
   VF64 0; VF64 f64_neg_zero; VStr []; VBool false; VBytes []; VU32S []].
Definition other_values : list value :=
  [VVoid; VU8 7; VU16 300; VU32 70000; VU64 18446744073709551615; VI8 (-128); VI16 (-1); VI32 5; VI64 (-9223372036854775808);
   VF32 1069547520; VF64 4609434218613702656; VStr [97%N]; VBool true; VBytes [0%N]; VU32S [0]].
Example reload_nontrivial :
  let r v := {| r_val := v; r_created := 5; r_created_by := [97%N]; r_modified := 0; r_modified_by := []; r_expiry := -1 |} in
  let h := [OWrite 1%N (r (VU8 0)); OWrite 2%N (r (VStr [])); OWrite 3%N (r (VI64 5)); OReload; OWrite 3%N (r (VI64 6)); ODelete 3%N; OWrite 2%N (r (VBool false))] in
  map (fun k => option_map w_val (seen (reload gob_spec true (run gob_spec true h)) k)) [1%N; 2%N; 3%N] = [Some (VU8 0); Some (VBool false); None] /\
  map (fun k => option_map w_val (seen (reload gob_spec false (run gob_spec false h)) k)) [1%N; 2%N; 3%N] = [Some VVoid; Some VVoid; None].
Proof. vm_compute. split; reflexivity. Qed.
