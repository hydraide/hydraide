(* Lemmas for C30 about Record/Expiry.v.  The invariant of the histories: a built expiry index holds
   exactly the keys whose record has a non-zero expiry ([inv], kept by every operation: [step_inv]).
   The index is followed one key at a time: [idx_at x b i] is what a built index says about [x], and
   every index operation is described by what it does to that bit. *)
From HV Require Import Base.Prelude Record.Expiry.
Local Open Scope Z_scope.

Lemma expiredb_spec now e : expiredb now e = true <-> expired now e.
Proof. unfold expiredb, expired. lia. Qed.

Lemma has_expiry_spec e : has_expiry e = true <-> e <> 0.
Proof. unfold has_expiry. lia. Qed.

Example predicates_agree_nontrivial :
  expiredb 100 (-1) = true /\ expiredb 100 0 = false /\ expiredb 100 100 = false /\ expiredb 100 99 = true.
Proof. vm_compute. repeat split. Qed.

Lemma wrap64_id z : min_i64 <= z <= max_i64 -> wrap64 z = z.
Proof.
  intros H. unfold wrap64, min_i64, max_i64, two63, two64 in *.
  rewrite Z.mod_small by lia. lia.
Qed.
Lemma sat64_id z : min_i64 <= z <= max_i64 -> sat64 z = z.
Proof. unfold sat64. lia. Qed.
Lemma sat64_side z now : min_i64 < now <= max_i64 -> (sat64 z < now <-> z < now).
Proof. unfold sat64. lia. Qed.
Lemma sat64_nonzero z : z <> 0 -> sat64 z <> 0.
Proof. assert (min_i64 < 0 < max_i64) by (split; reflexivity). unfold sat64. lia. Qed.

Lemma set_expiration_exact sat s n :
  is_zero_time s n = false -> min_i64 <= instant s n <= max_i64 ->
  set_expiration_time sat s n = instant s n.
Proof.
  intros Hz Hr. unfold set_expiration_time. rewrite Hz.
  destruct sat; [apply sat64_id | apply wrap64_id]; assumption.
Qed.

(* current code only: also an instant outside the int64 range stays on its side of every now *)
Lemma set_expiration_side s n now :
  is_zero_time s n = false -> min_i64 < now <= max_i64 ->
  (set_expiration_time true s n < now <-> instant s n < now).
Proof.
  intros Hz Hn. unfold set_expiration_time. rewrite Hz. apply sat64_side, Hn.
Qed.

Lemma set_expiration_nonzero s n :
  is_zero_time s n = false -> instant s n <> 0 -> set_expiration_time true s n <> 0.
Proof.
  intros Hz Hn. unfold set_expiration_time. rewrite Hz. apply sat64_nonzero, Hn.
Qed.

Lemma patch_clear sat t e : patch_path sat true t e = (0, true).
Proof. reflexivity. Qed.
Lemma patch_slide sat s n e :
  is_zero_time s n = false ->
  patch_path sat false (Some (s, n)) e = (set_expiration_time sat s n, true).
Proof. intros H. unfold patch_path. rewrite H. reflexivity. Qed.
Lemma patch_untouched sat e : patch_path sat false None e = (e, false).
Proof. reflexivity. Qed.

Example clear_slide_nontrivial :
  patch_path true false (Some (-3600, 0)) 5 = (-3600000000000, true) /\
  patch_path true true (Some (-3600, 0)) 5 = (0, true) /\
  patch_path true false (Some (10413792000, 0)) 5 = (max_i64, true) /\
  patch_path true false (Some (go_zero_sec, 0)) 5 = (5, false).
Proof. vm_compute. repeat split. Qed.

Lemma set_path_unchanged sat t e : snd (set_path sat t e) = false -> fst (set_path sat t e) = e.
Proof. unfold set_path. destruct t as [[s n]|]; [destruct ((0 <? s) || (0 <? n))|]; cbn; congruence. Qed.
Lemma inc_path_unchanged sat t e : snd (inc_path sat t e) = false -> fst (inc_path sat t e) = e.
Proof. unfold inc_path. destruct t as [[s n]|]; [destruct (ts_is_valid s n && negb (is_zero_time s n))|]; cbn; congruence. Qed.
Lemma patch_path_unchanged sat c t e : snd (patch_path sat c t e) = false -> fst (patch_path sat c t e) = e.
Proof. unfold patch_path. destruct c; [cbn; congruence|]. destruct t as [[s n]|]; [destruct (negb (is_zero_time s n))|]; cbn; congruence. Qed.

(* epoch-1h is ignored by Set but stored by a patch and by Increment metadata *)
Lemma input_paths_differ :
  exists s n, ts_is_valid s n = true /\
    set_path true (Some (s, n)) 0 = (0, false) /\
    patch_path true false (Some (s, n)) 0 = (instant s n, true) /\
    inc_path true (Some (s, n)) 0 = (instant s n, true) /\ instant s n <> 0.
Proof. exists (-3600), 0. vm_compute. repeat split; discriminate. Qed.

Lemma memN_In k l : memN k l = true <-> In k l.
Proof.
  unfold memN. rewrite existsb_exists. split.
  - intros [x [Hx He]]. apply N.eqb_eq in He. subst. exact Hx.
  - intros H. exists k. split; [exact H | apply N.eqb_refl].
Qed.
Lemma In_delN x k l : In x (delN k l) <-> In x l /\ x <> k.
Proof. unfold delN. rewrite filter_In, negb_true_iff, N.eqb_neq. split; intros [H1 H2]; auto. Qed.
Lemma In_addN x k l : In x (addN k l) <-> x = k \/ In x l.
Proof.
  unfold addN. destruct (memN k l) eqn:E; simpl; [|intuition congruence].
  apply memN_In in E. intuition congruence.
Qed.

Lemma lookup_remove_key x k l :
  lookup x (remove_key k l) = if N.eqb x k then None else lookup x l.
Proof.
  induction l as [|[k' r] t IH]; simpl.
  - destruct (N.eqb x k); reflexivity.
  - destruct (N.eqb_spec k k') as [->|Hk]; simpl; rewrite IH.
    + destruct (N.eqb x k'); reflexivity.
    + destruct (N.eqb_spec x k') as [->|Hx]; [|reflexivity].
      destruct (N.eqb_spec k' k); [congruence | reflexivity].
Qed.
Lemma lookup_upsert x k r l :
  lookup x (upsert k r l) = if N.eqb x k then Some r else lookup x l.
Proof.
  unfold upsert. simpl. rewrite lookup_remove_key. destruct (N.eqb x k); reflexivity.
Qed.
(* what the index is meant to know about [k] *)
Definition liveb (rs : list (key * rec)) (k : key) : bool :=
  match lookup k rs with Some r => has_expiry (r_exp r) | None => false end.

Lemma liveb_spec rs k : liveb rs k = true <-> exists r, lookup k rs = Some r /\ r_exp r <> 0.
Proof.
  unfold liveb. destruct (lookup k rs) as [r|].
  - rewrite has_expiry_spec. split; [eauto | intros [r1 [[= <-] H]]; exact H].
  - split; [discriminate | intros [r [E _]]; discriminate].
Qed.
Lemma liveb_upsert x k r rs :
  liveb (upsert k r rs) x = if N.eqb x k then has_expiry (r_exp r) else liveb rs x.
Proof. unfold liveb. rewrite lookup_upsert. destruct (N.eqb x k); reflexivity. Qed.
Lemma liveb_remove_key x k rs : liveb (remove_key k rs) x = if N.eqb x k then false else liveb rs x.
Proof. unfold liveb. rewrite lookup_remove_key. destruct (N.eqb x k); reflexivity. Qed.

Definition idx_at (k : key) (b : bool) (i : option (list key)) : Prop :=
  match i with Some l => In k l <-> b = true | None => True end.

Lemma idx_at_ex x i : exists b, idx_at x b i.
Proof.
  exists (match i with Some l => memN x l | None => false end).
  destruct i; simpl; [symmetry; apply memN_In | exact I].
Qed.

Lemma idx_at_set (v : bool) x k b i :
  idx_at x b i -> idx_at x (if N.eqb x k then v else b) (if v then idx_add k i else idx_del k i).
Proof.
  intros H. destruct v, i as [l|]; simpl in *; try exact I.
  - rewrite In_addN, H. destruct (N.eqb_spec x k); intuition congruence.
  - rewrite In_delN, H. destruct (N.eqb_spec x k); intuition congruence.
Qed.

(* the keys a cold build of the expiry index takes (swamp.go:treasuresForBeacon) *)
Definition live_keys (l : list (key * rec)) : list key :=
  map fst (filter (fun p => site_index_build (r_exp (snd p))) l).

(* what is used of "the key beacon holds one entry per key": a cold build is right about every key *)
Definition recs_ok (l : list (key * rec)) : Prop :=
  forall k, idx_at k (liveb l k) (Some (live_keys l)).

Lemma live_keys_remove k l : live_keys (remove_key k l) = delN k (live_keys l).
Proof.
  unfold live_keys, delN. induction l as [|[k' r] t IH]; simpl; [reflexivity|].
  destruct (N.eqb k k') eqn:E; simpl; destruct (site_index_build (r_exp r)); simpl;
    rewrite ?E, IH; reflexivity.
Qed.
Lemma recs_ok_remove_key k l : recs_ok l -> recs_ok (remove_key k l).
Proof.
  intros H x. rewrite live_keys_remove, liveb_remove_key.
  apply (idx_at_set false x k _ (Some (live_keys l))), H.
Qed.
(* [upsert] puts the record in front of the others *)
Lemma live_keys_upsert k r l :
  live_keys (upsert k r l) = (if has_expiry (r_exp r) then [k] else []) ++ delN k (live_keys l).
Proof.
  rewrite <- live_keys_remove. unfold upsert, live_keys. simpl.
  change (site_index_build (r_exp r)) with (has_expiry (r_exp r)). destruct (has_expiry (r_exp r)); reflexivity.
Qed.
Lemma recs_ok_upsert k r l : recs_ok l -> recs_ok (upsert k r l).
Proof.
  intros H x. pose proof (H x) as Hx. rewrite live_keys_upsert, liveb_upsert. unfold idx_at in Hx |- *.
  rewrite in_app_iff, In_delN, Hx.
  destruct (has_expiry (r_exp r)), (N.eqb_spec x k); simpl; intuition congruence.
Qed.

(* the index agrees with the records on the keys satisfying [Q]: all keys between operations,
   the keys not selected while PatchExpired works on the selected ones *)
Definition inv_on (Q : key -> Prop) (s : state) : Prop :=
  recs_ok (recs s) /\ forall k, Q k -> idx_at k (liveb (recs s) k) (idx s).
Definition inv : state -> Prop := inv_on (fun _ => True).

Lemma build_index_inv s : inv s -> inv (build_index s).
Proof.
  intros H. unfold build_index. destruct (idx s) as [l|] eqn:E; [exact H|].
  (* the fresh index is [live_keys (recs s)] unfolded: the clause about it is [recs_ok] *)
  split; [apply H|]. intros k _. apply H.
Qed.
Lemma build_index_built s : exists l, idx (build_index s) = Some l.
Proof. unfold build_index. destruct (idx s) as [l|] eqn:E; [exists l; exact E | eexists; reflexivity]. Qed.
Lemma build_index_recs s : recs (build_index s) = recs s.
Proof. unfold build_index. destruct (idx s); reflexivity. Qed.

(* SaveFunction on whether [k] is in the index ([b]: before) *)
Definition save_bit (existed tc ec : bool) (r : rec) (b : bool) : bool :=
  if negb existed then has_expiry (r_exp r) || b
  else if tc then match r_kind r with KVoid => false | _ => has_expiry (r_exp r) end
  else if ec then has_expiry (r_exp r)
  else b.

(* [b'] with the equation left to the caller, so that the lemma applies whatever form the caller's
   bit has ([do_save_inv]: the [liveb] of the new records) *)
Lemma save_index_at existed tc ec k r x b b' i :
  idx_at x b i -> (if N.eqb x k then save_bit existed tc ec r b else b) = b' ->
  idx_at x b' (save_index existed tc ec k r i).
Proof.
  intros H <-.
  (* every branch of [save_index] is [i], an add, a delete, or a delete and then an add *)
  pose proof (idx_at_set true x k _ _ H) as Ha.
  pose proof (idx_at_set false x k _ _ H) as Hd.
  pose proof (idx_at_set true x k _ _ Hd) as Hda.
  unfold save_index, save_bit, site_index_add, site_index_save, has_expiry. revert H Ha Hd Hda.
  destruct existed; [destruct tc; [destruct (r_kind r) | destruct ec] |];
    destruct (r_exp r =? 0), (N.eqb x k); intros; assumption.
Qed.

Lemma do_save_inv (Q : key -> Prop) s k old r ec0 f :
  (Q k -> save_bit (is_some old) (tc_extra f && negb (kind_eqb (r_kind r) KVoid)) (ec0 || ec_extra f) r
            (liveb (recs s) k) = has_expiry (r_exp r)) ->
  inv_on Q s -> inv_on Q (do_save s k old r ec0 f).
Proof.
  intros Hk [Hrs Hok]. split; [apply recs_ok_upsert, Hrs|].
  intros x Hx. cbn [do_save recs idx]. rewrite liveb_upsert.
  eapply save_index_at; [apply Hok, Hx|].
  destruct (N.eqb_spec x k) as [->|]; [apply Hk, Hx | reflexivity].
Qed.

(* [p]: the input path of an API call that saves.  The conclusion has the shape of the saving
   branches of [step] ([old] and [e] are what the branch holds in place of the lookup and the old
   expiry), so that [apply] matches each of them. *)
Lemma save_path_inv (p : Z -> Z * bool) s k old e kd f :
  (snd (p e) = false -> fst (p e) = e) -> inv s ->
  lookup k (recs s) = old -> old_exp old = e ->
  inv (let '(e', ec0) := p e in do_save s k old {| r_kind := kd; r_exp := e' |} ec0 f).
Proof.
  intros Hp H <- <-. destruct (p _) as [e' ec0]. cbn [fst snd] in Hp. apply do_save_inv; [intros _ | exact H].
  unfold save_bit, liveb. cbn [r_kind r_exp].
  destruct (lookup k (recs s)) as [r0|]; cbn [is_some negb old_exp] in *.
  - (* existing record: with [ec0] the entry is redone, without it the expiry is the old one and
       redone or left alone is the same; [tc] never comes with a void record *)
    destruct ec0; [|rewrite (Hp eq_refl)]; destruct (tc_extra f), kd, (ec_extra f); reflexivity.
  - (* new key: it was not in the index *) destruct (has_expiry e'); reflexivity.
Qed.

Lemma delete_inv s k : inv s -> inv {| recs := remove_key k (recs s); idx := idx_del k (idx s) |}.
Proof.
  intros [Hrs Hok]. split; [apply recs_ok_remove_key, Hrs|].
  intros x _. cbn [recs idx]. rewrite liveb_remove_key. apply (idx_at_set false), Hok, I.
Qed.

Lemma patch_expired_one_frame Q sat clear t f s k :
  ~ Q k -> inv_on Q s -> inv_on Q (patch_expired_one sat clear t f s k).
Proof.
  intros Hk H. unfold patch_expired_one.
  destruct (lookup k (recs s)) as [r|]; [|exact H].
  destruct (r_kind r); try exact H.
  destruct (patch_path sat clear t (r_exp r)). apply do_save_inv; [intros Hq; contradiction | exact H].
Qed.

(* instances: the selection of PatchExpired and both loops of ReindexExpiration *)
Lemma fold_idx_at (f : option (list key) -> key -> option (list key)) (c : key -> bool) (v : bool) x :
  (forall k b i, idx_at x b i -> idx_at x (if c k then if N.eqb x k then v else b else b) (f i k)) ->
  forall sel b i, idx_at x b i ->
  idx_at x (if memN x sel then if c x then v else b else b) (fold_left f sel i).
Proof.
  intros Hf. induction sel as [|k t IH]; intros b i H; [exact H|].
  (* the step at [k], then the rest of the loop; the two forms of the bit agree by computation *)
  apply (Hf k), IH in H. revert H. change (memN x (k :: t)) with (N.eqb x k || memN x t). cbn [fold_left].
  destruct (N.eqb_spec x k) as [->|_]; destruct (c k), (memN _ t); exact (fun H => H).
Qed.

Lemma reindex_at sel s x b :
  idx_at x b (idx s) ->
  idx_at x (if memN x sel then liveb (recs s) x else b) (idx (reindex sel s)).
Proof.
  intros H. cbn [reindex idx].
  (* the loop of deletes, then the loop of conditional adds *)
  apply (fold_idx_at (fun i k => idx_del k i) (fun _ => true) false x (fun k => idx_at_set false x k) sel) in H.
  eapply (fold_idx_at _ (liveb (recs s)) true x) with (sel := sel) in H.
  - revert H. destruct (memN x sel), (liveb (recs s) x); exact (fun H => H).
  - intros k b' i H'. unfold liveb, site_index_reindex, has_expiry.
    destruct (lookup k (recs s)) as [r|]; [destruct (r_exp r =? 0)|]; try exact H'.
    apply (idx_at_set true), H'.
Qed.

Lemma reindex_inv sel s : inv_on (fun x => memN x sel = false) s -> inv (reindex sel s).
Proof.
  intros [Hrs Hok]. split; [exact Hrs|]. intros x _. change (recs (reindex sel s)) with (recs s).
  destruct (memN x sel) eqn:E.
  - (* selected: whatever the index said before *)
    destruct (idx_at_ex x (idx s)) as [b H]. apply (reindex_at sel) in H. rewrite E in H. exact H.
  - pose proof (reindex_at sel s x _ (Hok x E)) as H. rewrite E in H. exact H.
Qed.

Lemma step_inv sat s o : inv s -> inv (step sat s o).
Proof.
  intros H. destruct o as [k kd t f|k tn te f|k create clear t f|k| | |now|now|now clear t f]; cbn [step].
  - (* OSet *) apply save_path_inv; auto using set_path_unchanged.
  - (* OInc *) destruct (lookup k (recs s)) as [r|] eqn:El.
    + destruct (r_kind r).
      * (* bytes: "value is not an integer" *) exact H.
      * (* int: SetIfExist metadata *) apply save_path_inv; auto using inc_path_unchanged.
      * (* void: SetIfNotExist metadata *) apply save_path_inv; auto using inc_path_unchanged.
    + (* new key *) apply save_path_inv; auto using inc_path_unchanged.
  - (* OPatch *) destruct (lookup k (recs s)) as [r|] eqn:El.
    + destruct (r_kind r).
      * (* bytes *) apply save_path_inv; auto using patch_path_unchanged.
      * (* int: TYPE_MISMATCH *) exact H.
      * (* void: only with create *)
        destruct create; [apply save_path_inv; auto using patch_path_unchanged | exact H].
    + (* new key: only with create *)
      destruct create; [apply save_path_inv; auto using patch_path_unchanged | exact H].
  - (* ODelete *) apply delete_inv, H.
  - (* OTouch *) apply build_index_inv, H.
  - (* OReload *) split; [apply H | intros k _; exact I].
  - (* OShiftExpired *) apply fold_left_inv; [intros a k _; apply delete_inv | apply build_index_inv, H].
  - (* OShiftWindow *) apply fold_left_inv; [intros a k _; apply delete_inv | apply build_index_inv, H].
  - (* OPatchExpired: selection takes the selected keys out of the index, the per-record saves
       leave the other keys alone, the final ReindexExpiration puts the selected ones back
       according to their new expiry *)
    destruct (build_index_inv s H) as [Hrs Hok].
    set (s1 := build_index s) in *.
    set (sel := claimed_keys (site_select_for_patch_cap now) s1).
    apply reindex_inv, fold_left_inv.
    + (* a key of [sel] is not among the keys the invariant is kept on ([memN k sel = false]) *)
      intros a k Hk%memN_In. apply patch_expired_one_frame. congruence.
    + split; [exact Hrs|]. intros x Hx. cbn [recs idx].
      pose proof (fold_idx_at _ (fun _ => true) false x (fun k => idx_at_set false x k) sel _ _ (Hok x I)) as Hx'.
      rewrite Hx in Hx'. exact Hx'.
Qed.

Lemma init_inv : inv init.
Proof. split; [intros k; split; [intros [] | discriminate] | intros k _; exact I]. Qed.

Theorem run_inv sat h : forall s, inv s -> inv (run sat s h).
Proof. apply fold_left_inv. intros s o _. apply step_inv. Qed.

Lemma inv_index_membership s l k :
  inv s -> idx s = Some l -> (In k l <-> exists r, lookup k (recs s) = Some r /\ r_exp r <> 0).
Proof.
  intros [_ Hok] Hl. rewrite <- liveb_spec. specialize (Hok k I). rewrite Hl in Hok. exact Hok.
Qed.

Theorem index_membership : forall sat h l k,
  idx (run sat init h) = Some l ->
  (In k l <-> exists r, lookup k (recs (run sat init h)) = Some r /\ r_exp r <> 0).
Proof. intros sat h l k. apply inv_index_membership, run_inv, init_inv. Qed.

Lemma claimed_keys_exact s test k : inv s ->
  (In k (claimed_keys test (build_index s)) <->
   exists r, lookup k (recs s) = Some r /\ r_exp r <> 0 /\ test (r_exp r) = true).
Proof.
  intros H. destruct (build_index_built s) as [l Hl].
  pose proof (inv_index_membership _ l k (build_index_inv s H) Hl) as Hk. rewrite build_index_recs in Hk.
  unfold claimed_keys, idx_keys. rewrite Hl, filter_In, Hk, build_index_recs. split.
  - intros [[r [E He]] Ht]. rewrite E in Ht. eauto.
  - intros [r [E [He Ht]]]. rewrite E. eauto.
Qed.

(* the three claim paths use tests of this form *)
Lemma claimed_keys_expired s now test k : inv s ->
  (forall e, e <> 0 -> test e = (e <? now)) ->
  (In k (claimed_keys test (build_index s)) <->
   exists r, lookup k (recs s) = Some r /\ expired now (r_exp r)).
Proof.
  intros H Ht. rewrite (claimed_keys_exact s test k H). unfold expired.
  split; intros [r [E [H1 H2]]]; exists r; rewrite Ht, Z.ltb_lt in *; auto.
Qed.

(* a set, a slide into the past through a patch, a reload and a clear *)
Example history_nontrivial :
  let h := [OSet 1%N KBytes (Some (1790000000, 0)) no_flags;
            OSet 2%N KBytes None no_flags; OTouch;
            OPatch 2%N false false (Some (-3600, 0)) no_flags; OReload;
            OPatch 1%N false true None no_flags; OTouch] in
  let s := run true init h in
  idx s = Some [2%N] /\ claim_result s (OShiftExpired 5) = [2%N] /\
  map (fun p => (fst p, r_exp (snd p))) (recs s) = [(1%N, 0); (2%N, -3600000000000)].
Proof. vm_compute. repeat split. Qed.
