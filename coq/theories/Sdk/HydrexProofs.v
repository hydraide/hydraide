(* Sdk/HydrexProofs.v — proofs about the Hydrex model (Sdk/Hydrex.v).

   One invariant relates the store reached by any sequence of Save/Destroy to the specification
   state  sp : index -> domain -> items  (the items of the last Save, [] after Destroy):
     - core data of (i,d) has exactly the keys of  sp i d
     - the index swamp of (i,k) lists d  iff  k is a key of  sp i d
     - (code with the value rewrite, fixd = true)  core values are those of  sp i d.
   It holds for every iteration-order oracle and every clock.
   Second part: no swamp of a reachable store holds a key twice ([run_ok]); then closed examples. *)
From HV Require Import Base.Prelude Sdk.Hydrex.
Local Open Scope N_scope.

Section AssocFacts.
  Context {K V : Type} (eqb : K -> K -> bool).
  Hypothesis eqb_spec : forall a b, eqb a b = true <-> a = b.

  Lemma eqb_reflect : forall a b, reflect (a = b) (eqb a b).
  Proof. intros a b. apply iff_reflect. symmetry. apply eqb_spec. Qed.

  Lemma eqb_sym' : forall a b, eqb a b = eqb b a.
  Proof. intros a b. apply Bool.eq_true_iff_eq. rewrite !eqb_spec. split; congruence. Qed.

  Lemma eqb_trans_l : forall a b c, eqb a b = true -> eqb a c = eqb b c.
  Proof. intros a b c E. apply eqb_spec in E. subst. reflexivity. Qed.

  Lemma alookup_aremove : forall k k' (l : list (K * V)),
    alookup eqb k (aremove eqb k' l) = if eqb k k' then None else alookup eqb k l.
  Proof.
    intros k k' l. induction l as [|[a v] t IH]; simpl; [destruct (eqb k k'); reflexivity|].
    destruct (eqb_reflect k' a) as [<-|Hn]; simpl; rewrite IH.
    - destruct (eqb k k'); reflexivity.
    - destruct (eqb_reflect k a) as [->|_]; [|reflexivity].
      destruct (eqb_reflect a k') as [<-|_]; [congruence|reflexivity].
  Qed.

  Lemma alookup_aupsert : forall k k' v (l : list (K * V)),
    alookup eqb k (aupsert eqb k' v l) = if eqb k k' then Some v else alookup eqb k l.
  Proof.
    intros k k' v l. induction l as [|[a w] t IH]; simpl; [destruct (eqb k k'); reflexivity|].
    destruct (eqb_reflect k' a) as [<-|Hn]; simpl.
    - destruct (eqb k k'); reflexivity.
    - rewrite IH. destruct (eqb_reflect k a) as [->|_]; [|reflexivity].
      destruct (eqb_reflect a k') as [<-|_]; [congruence|reflexivity].
  Qed.

  Lemma alookup_app : forall k (l1 l2 : list (K * V)),
    alookup eqb k (l1 ++ l2) =
    match alookup eqb k l1 with Some e => Some e | None => alookup eqb k l2 end.
  Proof.
    intros k l1 l2. induction l1 as [|[a v] t IH]; simpl; [reflexivity|].
    destruct (eqb k a); [reflexivity|exact IH].
  Qed.
End AssocFacts.

Lemma sname_eqb_spec : forall a b, sname_eqb a b = true <-> a = b.
Proof.
  intros [s1 r1 w1] [s2 r2 w2]. unfold sname_eqb. simpl. rewrite !andb_true_iff, !N.eqb_eq. split.
  - intros [[Hs ->] ->]. destruct s1, s2; try discriminate; reflexivity.
  - intros [= -> -> ->]. destruct s2; auto.
Qed.

Definition is_some {A} (o : option A) : bool := match o with Some _ => true | None => false end.

Lemma nmem_map_fst : forall {V} k (l : list (N * V)), nmem k (map fst l) = amem N.eqb k l.
Proof.
  intros V k l. unfold amem. induction l as [|[a v] t IH]; simpl; [reflexivity|].
  destruct (N.eqb k a); simpl; [reflexivity|exact IH].
Qed.

Lemma alookup_fold_upsert : forall k (kvs : list (N * entry)) (s : swamp),
  alookup N.eqb k (fold_left (fun s kv => aupsert N.eqb (fst kv) (snd kv) s) kvs s) =
  match alookup N.eqb k (rev kvs) with Some e => Some e | None => alookup N.eqb k s end.
Proof.
  intros k kvs. induction kvs as [|[a v] t IH]; intro s; simpl; [reflexivity|].
  rewrite IH. rewrite (alookup_app N.eqb). rewrite (alookup_aupsert N.eqb N.eqb_eq). simpl.
  destruct (alookup N.eqb k (rev t)); [reflexivity|].
  destruct (N.eqb k a); reflexivity.
Qed.

Lemma alookup_fold_remove : forall k (keys : list N) (s : swamp),
  alookup N.eqb k (fold_left (fun s k => aremove N.eqb k s) keys s) =
  if nmem k keys then None else alookup N.eqb k s.
Proof.
  intros k keys. induction keys as [|a t IH]; intro s; simpl; [reflexivity|].
  rewrite IH. rewrite (alookup_aremove N.eqb N.eqb_eq).
  destruct (N.eqb k a); simpl; destruct (nmem k t); reflexivity.
Qed.

Definition sget (st : store) (sw : sname) (k : N) : option entry :=
  alookup N.eqb k (read_many st sw).

Lemma read_many_set_swamp : forall st sw s sw',
  read_many (set_swamp st sw s) sw' = if sname_eqb sw' sw then s else read_many st sw'.
Proof.
  intros st sw s sw'. unfold read_many, set_swamp. destruct s as [|x t].
  - rewrite (alookup_aremove sname_eqb sname_eqb_spec). destruct (sname_eqb sw' sw); reflexivity.
  - rewrite (alookup_aupsert sname_eqb sname_eqb_spec). destruct (sname_eqb sw' sw); reflexivity.
Qed.

Lemma read_many_eq : forall st sw sw', sname_eqb sw' sw = true -> read_many st sw' = read_many st sw.
Proof. intros st sw sw' E. apply sname_eqb_spec in E. subst. reflexivity. Qed.

Lemma sget_save_many : forall st sw kvs sw' k,
  sget (save_many st sw kvs) sw' k =
  if sname_eqb sw' sw
  then match alookup N.eqb k (rev kvs) with Some e => Some e | None => sget st sw' k end
  else sget st sw' k.
Proof.
  intros st sw kvs sw' k. unfold sget, save_many. destruct kvs as [|x t].
  - simpl. destruct (sname_eqb sw' sw); reflexivity.
  - rewrite read_many_set_swamp. destruct (sname_eqb sw' sw) eqn:E; [|reflexivity].
    rewrite alookup_fold_upsert. rewrite (read_many_eq st sw sw' E). reflexivity.
Qed.

Lemma sget_delete_many : forall st sw keys sw' k,
  sget (delete_many st sw keys) sw' k =
  if sname_eqb sw' sw && nmem k keys then None else sget st sw' k.
Proof.
  intros st sw keys sw' k. unfold sget, delete_many.
  destruct (alookup sname_eqb sw st) as [s|] eqn:L.
  - rewrite read_many_set_swamp. destruct (sname_eqb sw' sw) eqn:E; simpl; [|reflexivity].
    rewrite alookup_fold_remove. rewrite (read_many_eq st sw sw' E). unfold read_many. rewrite L.
    reflexivity.
  - destruct (sname_eqb sw' sw) eqn:E; simpl; [|reflexivity].
    rewrite (read_many_eq st sw sw' E). unfold read_many. rewrite L. simpl.
    destruct (nmem k keys); reflexivity.
Qed.

Lemma sget_destroy : forall st sw sw' k,
  sget (destroy_swamp st sw) sw' k = if sname_eqb sw' sw then None else sget st sw' k.
Proof.
  intros st sw sw' k. unfold sget, destroy_swamp, read_many.
  rewrite (alookup_aremove sname_eqb sname_eqb_spec). destruct (sname_eqb sw' sw); reflexivity.
Qed.

(* [sw] is the index swamp of one of the keys [ks]: what the per-index loops of Save and Destroy touch *)
Definition hits (i : N) (ks : list N) (sw : sname) : bool :=
  existsb (fun k => sname_eqb sw (idx_name i k)) ks.

Lemma sget_fold_idx_delete : forall i d ks st sw x,
  sget (fold_left (fun s k => delete_many s (idx_name i k) [d]) ks st) sw x =
  if hits i ks sw && N.eqb x d then None else sget st sw x.
Proof.
  intros i d ks. induction ks as [|a t IH]; intros st sw x; simpl; [reflexivity|].
  rewrite IH. rewrite sget_delete_many. simpl. rewrite orb_false_r.
  destruct (sname_eqb sw (idx_name i a)); simpl; destruct (hits i t sw); simpl;
    destruct (N.eqb x d); reflexivity.
Qed.

Lemma sget_fold_idx_save : forall i d e ks st sw x,
  sget (fold_left (fun s k => save_many s (idx_name i k) [(d, e)]) ks st) sw x =
  if hits i ks sw && N.eqb x d then Some e else sget st sw x.
Proof.
  intros i d e ks. induction ks as [|a t IH]; intros st sw x; cbn [fold_left]; [reflexivity|].
  rewrite IH. rewrite sget_save_many.
  change (hits i (a :: t) sw) with (sname_eqb sw (idx_name i a) || hits i t sw).
  cbn [rev app alookup].
  destruct (hits i t sw); destruct (N.eqb x d) eqn:E;
    destruct (sname_eqb sw (idx_name i a)); simpl; reflexivity.
Qed.

Lemma hits_core : forall i ks i' d', hits i ks (core_name i' d') = false.
Proof. intros i ks i' d'. unfold hits. induction ks as [|a t IH]; simpl; [reflexivity|exact IH]. Qed.

Lemma hits_idx : forall i ks i' k', hits i ks (idx_name i' k') = N.eqb i' i && nmem k' ks.
Proof.
  intros i ks i' k'. unfold hits. induction ks as [|a t IH]; simpl.
  - rewrite andb_false_r. reflexivity.
  - rewrite IH. unfold sname_eqb. simpl. destruct (N.eqb i' i); simpl; reflexivity.
Qed.

Lemma nmem_insert_by : forall pri k a l, nmem k (insert_by pri a l) = N.eqb k a || nmem k l.
Proof.
  intros pri k a l. induction l as [|x t IH]; simpl; [reflexivity|].
  destruct (N.ltb (pos_in a pri) (pos_in x pri)); simpl; [reflexivity|].
  rewrite IH. destruct (N.eqb k a), (N.eqb k x); reflexivity.
Qed.

Lemma nmem_order_by : forall pri k l, nmem k (order_by pri l) = nmem k l.
Proof.
  intros pri k l. unfold order_by. induction l as [|a t IH]; simpl; [reflexivity|].
  rewrite nmem_insert_by. rewrite IH. reflexivity.
Qed.

Lemma nmem_filter : forall f k l, nmem k (filter f l) = nmem k l && f k.
Proof.
  intros f k l. induction l as [|a t IH]; simpl; [reflexivity|].
  destruct (f a) eqn:F; simpl; rewrite IH; destruct (N.eqb_spec k a) as [->|_]; simpl;
    rewrite ?F, ?andb_false_r; reflexivity.
Qed.

(* rows appended by the second loop of Save: a function of the key, at most one row *)
Lemma alookup_rev_flat_map : forall (f : N -> list (N * entry)) k l,
  (forall a, f a = [] \/ exists e, f a = [(a, e)]) ->
  alookup N.eqb k (rev (flat_map f l)) = if nmem k l then alookup N.eqb k (f k) else None.
Proof.
  intros f k l Hf. induction l as [|a t IH]; simpl; [reflexivity|].
  rewrite rev_app_distr, (alookup_app N.eqb), IH.
  assert (R : alookup N.eqb k (rev (f a)) = if N.eqb k a then alookup N.eqb k (f a) else None).
  { destruct (Hf a) as [H|[e H]]; rewrite H; simpl; destruct (N.eqb k a); reflexivity. }
  rewrite R. destruct (N.eqb_spec k a) as [->|_]; simpl; destruct (nmem _ t); try reflexivity;
    destruct (alookup N.eqb _ (f _)); reflexivity.
Qed.

Lemma save_row_shape : forall fixd existing its now a,
  save_row fixd existing its now a = [] \/ exists e, save_row fixd existing its now a = [(a, e)].
Proof.
  intros. unfold save_row. destruct (alookup N.eqb a its); [|left; reflexivity].
  destruct (alookup N.eqb a existing).
  - destruct (fixd && negb (N.eqb n (e_val e))); [right; eexists; reflexivity|left; reflexivity].
  - right; eexists; reflexivity.
Qed.

Lemma same_id_eq : forall i d i' d' : N, (i' =? i) && (d' =? d) = true -> i' = i /\ d' = d.
Proof.
  intros i d i' d' S. apply andb_true_iff in S as [S1 S2].
  apply N.eqb_eq in S1. apply N.eqb_eq in S2. auto.
Qed.

(* by computation; named to drive [rewrite] *)
Lemma sname_eqb_core : forall i d i' d', sname_eqb (core_name i' d') (core_name i d) = ((i' =? i) && (d' =? d)).
Proof. reflexivity. Qed.
Lemma sname_eqb_core_idx : forall i d i' k', sname_eqb (core_name i d) (idx_name i' k') = false.
Proof. reflexivity. Qed.
Lemma sname_eqb_idx_core : forall i d i' k', sname_eqb (idx_name i' k') (core_name i d) = false.
Proof. reflexivity. Qed.

Lemma sget_delete_opt : forall st sw dels sw' k,
  sget (match dels with [] => st | _ => delete_many st sw dels end) sw' k =
  if sname_eqb sw' sw && nmem k dels then None else sget st sw' k.
Proof.
  intros st sw dels sw' k. destruct dels as [|a t].
  - simpl. rewrite andb_false_r. reflexivity.
  - apply sget_delete_many.
Qed.

Lemma hx_save_core : forall fixd st i d its o i' d' k,
  sget (hx_save fixd st i d its o) (core_name i' d') k =
  if ((i' =? i) && (d' =? d)) then
    match alookup N.eqb k its with
    | None => None
    | Some v =>
        match sget st (core_name i d) k with
        | None => Some (mk_entry v (o_now o))
        | Some e => if fixd && negb (N.eqb v (e_val e)) then Some (mk_entry v (e_created e)) else Some e
        end
    end
  else sget st (core_name i' d') k.
Proof.
  intros fixd st i d its o i' d' k. unfold hx_save.
  rewrite sget_fold_idx_save. rewrite hits_core. simpl.
  rewrite sget_save_many. rewrite sname_eqb_core.
  rewrite sget_delete_opt. rewrite sname_eqb_core.
  rewrite sget_fold_idx_delete. rewrite hits_core. simpl.
  destruct (((i' =? i) && (d' =? d))) eqn:S; simpl; [|reflexivity].
  apply same_id_eq in S as [-> ->].
  rewrite (alookup_rev_flat_map _ k _ (save_row_shape fixd _ its (o_now o))).
  rewrite nmem_order_by, nmem_map_fst, nmem_filter, nmem_order_by, nmem_map_fst.
  unfold save_row, sget, amem.
  destruct (alookup N.eqb k its) as [v|];
    destruct (alookup N.eqb k (read_many st (core_name i d))) as [e|]; simpl; try reflexivity.
  - destruct (fixd && negb (N.eqb v (e_val e))); simpl; rewrite ?N.eqb_refl; reflexivity.
  - rewrite N.eqb_refl. reflexivity.
Qed.

Lemma hx_save_idx : forall fixd st i d its o i' k' d',
  sget (hx_save fixd st i d its o) (idx_name i' k') d' =
  if ((i' =? i) && (d' =? d)) then
    if amem N.eqb k' its && negb (is_some (sget st (core_name i d) k')) then Some (mk_entry 0 (o_now o))
    else if is_some (sget st (core_name i d) k') && negb (amem N.eqb k' its) then None
    else sget st (idx_name i' k') d'
  else sget st (idx_name i' k') d'.
Proof.
  intros fixd st i d its o i' k' d'. unfold hx_save.
  rewrite sget_fold_idx_save. rewrite hits_idx.
  rewrite sget_save_many. rewrite sname_eqb_idx_core.
  rewrite sget_delete_opt. rewrite sname_eqb_idx_core. simpl.
  rewrite sget_fold_idx_delete. rewrite hits_idx.
  rewrite !nmem_filter. rewrite !nmem_order_by. rewrite !nmem_map_fst.
  unfold sget, amem.
  destruct (N.eqb i' i); simpl; [|reflexivity].
  destruct (N.eqb d' d); simpl; [|rewrite !andb_false_r; reflexivity].
  rewrite !andb_true_r.
  destruct (alookup N.eqb k' its); simpl;
    destruct (alookup N.eqb k' (read_many st (core_name i d))); simpl; reflexivity.
Qed.

Lemma hx_destroy_core : forall st i d i' d' k,
  sget (hx_destroy st i d) (core_name i' d') k =
  if ((i' =? i) && (d' =? d)) then None else sget st (core_name i' d') k.
Proof.
  intros st i d i' d' k. unfold hx_destroy.
  rewrite sget_fold_idx_delete. rewrite hits_core. simpl.
  rewrite sget_destroy. rewrite sname_eqb_core. reflexivity.
Qed.

Lemma hx_destroy_idx : forall st i d i' k' d',
  sget (hx_destroy st i d) (idx_name i' k') d' =
  if ((i' =? i) && (d' =? d)) && is_some (sget st (core_name i d) k') then None
  else sget st (idx_name i' k') d'.
Proof.
  intros st i d i' k' d'. unfold hx_destroy.
  rewrite sget_fold_idx_delete. rewrite hits_idx. rewrite nmem_map_fst.
  rewrite sget_destroy. rewrite sname_eqb_idx_core.
  unfold sget, amem.
  destruct (N.eqb i' i); simpl; [|reflexivity].
  destruct (alookup N.eqb k' (read_many st (core_name i d))); simpl;
    destruct (N.eqb d' d); simpl; reflexivity.
Qed.

Definition spec := N -> N -> items.

Record Inv (fixd : bool) (st : store) (sp : spec) : Prop := {
  inv_core : forall i d k, is_some (sget st (core_name i d) k) = amem N.eqb k (sp i d);
  inv_idx : forall i k d, is_some (sget st (idx_name i k) d) = amem N.eqb k (sp i d);
  inv_val : fixd = true -> forall i d k,
      option_map e_val (sget st (core_name i d) k) = alookup N.eqb k (sp i d)
}.

Lemma inv_init : forall fixd, Inv fixd [] (fun _ _ => []).
Proof. intro fixd. split; intros; reflexivity. Qed.

(* [sp'] is given pointwise: [last_saved] is a fold per (index, domain), and fits without
   function extensionality. *)
Lemma inv_step : forall fixd st sp x sp', Inv fixd st sp ->
  (forall i d, sp' i d = spec_step i d (sp i d) x) -> Inv fixd (step fixd st x) sp'.
Proof.
  intros fixd st sp x sp' [Hc Hi Hv] E. destruct x as [i d its o|i d]; simpl in E |- *.
  - split.
    + intros i' d' k. rewrite hx_save_core, E.
      destruct (((i' =? i) && (d' =? d))) eqn:S; [|apply Hc].
      unfold amem. destruct (alookup N.eqb k its); [|reflexivity].
      destruct (sget st (core_name i d) k); [|reflexivity].
      destruct (fixd && negb (N.eqb n (e_val e))); reflexivity.
    + intros i' k' d'. rewrite hx_save_idx, E.
      destruct (((i' =? i) && (d' =? d))) eqn:S; [|apply Hi].
      apply same_id_eq in S as [-> ->].
      specialize (Hc i d k'). specialize (Hi i k' d). rewrite <- Hc in Hi.
      destruct (amem N.eqb k' its); destruct (is_some (sget st (core_name i d) k')); simpl;
        try reflexivity; exact Hi.
    + intros F i' d' k. rewrite hx_save_core, E.
      destruct (((i' =? i) && (d' =? d))) eqn:S; [|apply (Hv F)].
      destruct (alookup N.eqb k its) as [v|]; [|reflexivity].
      destruct (sget st (core_name i d) k) as [e|]; [|reflexivity].
      rewrite F. simpl. destruct (N.eqb_spec v (e_val e)) as [->|_]; reflexivity.
  - split.
    + intros i' d' k. rewrite hx_destroy_core, E.
      destruct (((i' =? i) && (d' =? d))); [reflexivity|apply Hc].
    + intros i' k' d'. rewrite hx_destroy_idx, E.
      destruct (((i' =? i) && (d' =? d))) eqn:S; simpl; [|apply Hi].
      apply same_id_eq in S as [-> ->].
      specialize (Hc i d k'). specialize (Hi i k' d). rewrite <- Hc in Hi.
      destruct (is_some (sget st (core_name i d) k')); simpl; [reflexivity|exact Hi].
    + intros F i' d' k. rewrite hx_destroy_core, E.
      destruct (((i' =? i) && (d' =? d))); [reflexivity|apply (Hv F)].
Qed.

Lemma inv_run : forall fixd ops, Inv fixd (run fixd ops) (last_saved ops).
Proof.
  intros fixd ops. induction ops as [|x t IH] using rev_ind; [apply inv_init|].
  unfold run. rewrite fold_left_app. apply (inv_step fixd _ _ x _ IH).
  intros i d. unfold last_saved. apply fold_left_app.
Qed.

Lemma In_map_fst_amem : forall {V} k (l : list (N * V)), In k (map fst l) <-> amem N.eqb k l = true.
Proof.
  intros V k l. rewrite <- nmem_map_fst. unfold nmem. rewrite existsb_exists. split.
  - intro H. exists k. split; [exact H|apply N.eqb_refl].
  - intros [x [H E]]. apply N.eqb_eq in E. subst. exact H.
Qed.

Lemma In_read_many : forall st sw k, In k (map fst (read_many st sw)) <-> is_some (sget st sw k) = true.
Proof. intros. apply In_map_fst_amem. Qed.

Lemma alookup_core_values : forall st i d k,
  alookup N.eqb k (core_values st i d) = option_map e_val (sget st (core_name i d) k).
Proof.
  intros st i d k. unfold core_values, get_core, sget.
  induction (read_many st (core_name i d)) as [|[a e] t IH]; simpl; [reflexivity|].
  destruct (N.eqb k a); [reflexivity|exact IH].
Qed.

Definition swamp_ok (s : swamp) : Prop := NoDup (map fst s).
Definition store_ok (st : store) : Prop := forall sw, swamp_ok (read_many st sw).

Lemma aremove_ok : forall k s, swamp_ok s -> swamp_ok (aremove N.eqb k s).
Proof.
  intros k s H. unfold swamp_ok.
  replace (map fst (aremove N.eqb k s)) with (filter (fun a => negb (N.eqb k a)) (map fst s)).
  - apply NoDup_filter. exact H.
  - clear H. induction s as [|[b e] t IH]; simpl; [reflexivity|].
    destruct (N.eqb k b); simpl; rewrite IH; reflexivity.
Qed.

Lemma aupsert_ok : forall k v s, swamp_ok s -> swamp_ok (aupsert N.eqb k v s).
Proof.
  intros k v s. unfold swamp_ok. induction s as [|[b e] t IH]; simpl; intro H.
  - constructor; [intros []|constructor].
  - inversion H as [|x l Hn Hd]; subst. destruct (N.eqb_spec k b) as [->|Hkb]; simpl.
    + constructor; auto.
    + constructor; [|auto]. rewrite In_map_fst_amem in *. unfold amem in *.
      rewrite (alookup_aupsert N.eqb N.eqb_eq). destruct (N.eqb_spec b k); [congruence|exact Hn].
Qed.

Lemma set_swamp_ok : forall st sw s, store_ok st -> swamp_ok s -> store_ok (set_swamp st sw s).
Proof.
  intros st sw s H Hs sw'. rewrite read_many_set_swamp. destruct (sname_eqb sw' sw); [exact Hs|apply H].
Qed.

Lemma save_many_ok : forall st sw kvs, store_ok st -> store_ok (save_many st sw kvs).
Proof.
  intros st sw kvs H. unfold save_many. destruct kvs as [|x t]; [exact H|].
  apply set_swamp_ok; [exact H|]. apply fold_left_inv; [|apply H]. intros; apply aupsert_ok; assumption.
Qed.

Lemma delete_many_ok : forall st sw keys, store_ok st -> store_ok (delete_many st sw keys).
Proof.
  intros st sw keys H. unfold delete_many. destruct (alookup sname_eqb sw st) as [s|] eqn:L; [|exact H].
  apply set_swamp_ok; [exact H|]. apply fold_left_inv; [intros; apply aremove_ok; assumption|].
  specialize (H sw). unfold read_many in H. rewrite L in H. exact H.
Qed.

Lemma step_ok : forall fixd st x, store_ok st -> store_ok (step fixd st x).
Proof.
  intros fixd st x H. destruct x as [i d its o|i d]; simpl.
  - unfold hx_save. apply fold_left_inv; [intros; apply save_many_ok; assumption|].
    apply save_many_ok. destruct (filter _ _); [exact H|]. apply delete_many_ok.
    apply fold_left_inv; [intros; apply delete_many_ok; assumption|exact H].
  - unfold hx_destroy. apply fold_left_inv; [intros; apply delete_many_ok; assumption|].
    (* Destroy is [set_swamp] to no rows *)
    apply (set_swamp_ok st (core_name i d) [] H). constructor.
Qed.

Lemma run_ok : forall fixd ops, store_ok (run fixd ops).
Proof.
  intros fixd ops. unfold run.
  apply fold_left_inv; [intros; apply step_ok; assumption | intro sw; constructor].
Qed.

(* an oracle without iteration preferences (keys in stored / given order), clock 1 *)
Definition or0 : oracle := {| o_old := []; o_new := []; o_now := 1 |}.

Definition ex_ops : list op :=
  [OSave 1 0 [(0, 5); (1, 6)] {| o_old := [1; 0]; o_new := [1; 0]; o_now := 1 |};
   OSave 1 1 [(1, 6); (2, 9)] or0;
   OSave 1 0 [(1, 7); (2, 8)] {| o_old := [2; 1; 0]; o_new := [0; 2; 1]; o_now := 3 |};
   ODestroy 1 1;
   OSave 1 2 [(2, 2)] or0].

Example ex_core : core_values (run true ex_ops) 1 0 = [(1, 7); (2, 8)].
Proof. vm_compute. reflexivity. Qed.
Example ex_index : map fst (get_index (run true ex_ops) 1 2) = [0; 2].
Proof. vm_compute. reflexivity. Qed.
Example ex_old_code_keeps_stale_value : core_values (run false ex_ops) 1 0 = [(1, 6); (2, 8)].
Proof. vm_compute. reflexivity. Qed.
Example ex_last_saved : last_saved ex_ops 1 0 = [(1, 7); (2, 8)] /\ last_saved ex_ops 1 1 = [].
Proof. vm_compute. split; reflexivity. Qed.
