(* Sdk/ConvProofs.v — theorems about Sdk/Conv.v: field isolation in the encoder, the
   frame/ownership structure of the encoder, the round trip of the value slot under codec
   round-trip hypotheses, and the witness models for the substring tag tests of the code before
   the repair (evaluated in Props/C22.v). *)
From HV Require Import Base.Prelude Gen.C22Consts Sdk.Tags Sdk.TagsProofs Sdk.Conv Sdk.ConvCheck.
Local Open Scope N_scope.

Section Generic.
  Variable B : Type.
  Variable C : codec B.

  Notation enc_field := (enc_field B C).
  Notation enc_fields := (enc_fields B C).
  Notation kvlog := (kvlog B).

  (* The body of the encoder's loop for one tagged field, by the role of the tag's head.  In the
     value branch: VoidVal for an empty value, then the typed slot. *)
  Lemma enc_field_by_role : forall msgp nm tag v,
    enc_field false msgp (Build_field nm (Some tag) v) =
    match inspect_role tag with
    | RKey => match v with VStr (c :: s) => Ok [(SnKey, PStr B (c :: s))] | _ => Err EKey end
    | RValue =>
        if omit_test false tag && is_empty v then Ok (if is_empty v then [(SnVoid, PBool B true)] else [])
        else res_app B (Ok (if is_empty v then [(SnVoid, PBool B true)] else [])) (conv_field B C msgp v)
    | RBody _ | RNone => Ok []
    | r => enc_meta B r (omit_test false tag) v
    end.
  Proof.
    intros msgp nm tag v. unfold Conv.enc_field. cbn [f_tag f_val].
    destruct (tests_by_role tag) as (-> & -> & ->).
    destruct (inspect_role tag); try reflexivity. cbn [role_eqb is_meta].
    destruct (omit_test false tag && is_empty v); [reflexivity|].
    unfold res_app. destruct (conv_field B C msgp v); [rewrite app_nil_r|]; reflexivity.
  Qed.

  (* A field whose tag head is not reserved contributes nothing to the key, the typed value,
     VoidVal or the metadata, whatever its name and value. *)
  Lemma body_field_encodes_nothing : forall msgp nm t v,
    reserved_opt (inspect_role t) = None ->
    enc_field false msgp (Build_field nm (Some t) v) = Ok [].
  Proof.
    intros msgp nm t v Hb. rewrite enc_field_by_role.
    destruct (inspect_role t); try discriminate Hb; reflexivity.
  Qed.

  Lemma enc_fields_app : forall sub msgp m1 m2,
    enc_fields sub msgp (m1 ++ m2) =
    match enc_fields sub msgp m1 with
    | Err e => Err e
    | Ok l1 => match enc_fields sub msgp m2 with Err e => Err e | Ok l2 => Ok (l1 ++ l2) end
    end.
  Proof.
    intros sub msgp m1 m2; induction m1 as [|f t IH]; simpl.
    - destruct (enc_fields sub msgp m2); reflexivity.
    - destruct (enc_field sub msgp f) as [l|e]; [|reflexivity]. rewrite IH.
      destruct (enc_fields sub msgp t) as [l1|e1]; [|reflexivity].
      destruct (enc_fields sub msgp m2) as [l2|e2]; [|reflexivity].
      rewrite app_assoc. reflexivity.
  Qed.

  Lemma body_fields_app : forall m1 m2, body_fields (m1 ++ m2) = body_fields m1 ++ body_fields m2.
  Proof. intros; unfold body_fields; apply filter_app. Qed.

  Lemma body_entries_app : forall m1 m2, body_entries (m1 ++ m2) = body_entries m1 ++ body_entries m2.
  Proof. intros; unfold body_entries. rewrite body_fields_app, filter_app, map_app. reflexivity. Qed.

  Lemma has_value_app : forall m1 m2, has_value (m1 ++ m2) = has_value m1 || has_value m2.
  Proof. intros; unfold has_value; apply existsb_app. Qed.

  Lemma body_field_cons : forall nm t v m, is_body (inspect_role t) = true ->
    let f := Build_field nm (Some t) v in
    has_value (f :: m) = has_value m /\
    body_fields (f :: m) = f :: body_fields m /\
    body_entries (f :: m) =
      (if has_omit t && is_empty v then [] else [(body_name f, v)]) ++ body_entries m.
  Proof.
    intros nm t v m Hb f. subst f. unfold body_entries, has_value, body_fields, frole.
    cbn [existsb filter f_tag]. rewrite Hb. cbn [filter fomit f_tag f_val].
    destruct (has_omit t && is_empty v); destruct (inspect_role t); try discriminate Hb; auto.
  Qed.

  Lemma body_or_none : forall r, is_body r = true \/ r = RNone -> reserved_opt r = None.
  Proof. intros r [H | ->]; [destruct r; try discriminate H|]; reflexivity. Qed.

  Theorem field_isolation : forall msgp pre post nm nm' v t t',
    is_body (inspect_role t) = true -> is_body (inspect_role t') = true -> has_omit t = has_omit t' ->
    let m := pre ++ Build_field nm (Some t) v :: post in
    let m' := pre ++ Build_field nm' (Some t') v :: post in
    enc_fields false msgp m = enc_fields false msgp m' /\
    inspect m = inspect m' /\
    exists e e',
      body_entries m = body_entries pre ++ e ++ body_entries post /\
      body_entries m' = body_entries pre ++ e' ++ body_entries post /\
      map snd e = map snd e' /\ (length e <= 1)%nat.
  Proof.
    intros msgp pre post nm nm' v t t' Hb Hb' Ho m m'. subst m m'.
    destruct (body_field_cons nm t v post Hb) as (Hv & Hf & He).
    destruct (body_field_cons nm' t' v post Hb') as (Hv' & Hf' & He').
    split; [|split].
    - rewrite !enc_fields_app. simpl.
      rewrite !body_field_encodes_nothing by (apply body_or_none; left; assumption). reflexivity.
    - unfold inspect. rewrite !has_value_app, !body_fields_app, Hv, Hf, Hv', Hf'.
      destruct (has_value pre || has_value post); destruct (body_fields pre); reflexivity.
    - rewrite !body_entries_app, He, He', Ho. do 2 eexists. split; [reflexivity|]. split; [reflexivity|].
      destruct (has_omit t' && is_empty v); simpl; auto.
  Qed.

  (* the role whose branch of the encoder assigns the slot *)
  Definition owner (sn : sname) : role :=
    match sn with
    | SnKey => RKey | SnTyped _ | SnVoid => RValue | SnExp => RExpireAt | SnCBy => RCreatedBy
    | SnCAt => RCreatedAt | SnUBy => RUpdatedBy | SnUAt => RUpdatedAt
    end.

  Lemma raw_get_app : forall sn (l1 l2 : kvlog),
    raw_get B sn (l1 ++ l2) = match raw_get B sn l2 with Some x => Some x | None => raw_get B sn l1 end.
  Proof.
    intros sn l1 l2. induction l2 as [|p t IH] using rev_ind; [rewrite app_nil_r; reflexivity|].
    unfold raw_get in *. rewrite app_assoc, (fold_left_app _ (l1 ++ t)), (fold_left_app _ t). simpl.
    destruct (sname_eqb (fst p) sn); [reflexivity|exact IH].
  Qed.

  Lemma sname_eqb_true : forall a b, sname_eqb a b = true -> a = b.
  Proof. intros [] []; simpl; intro H; try discriminate; try reflexivity. apply N.eqb_eq in H; subst; reflexivity. Qed.

  Lemma raw_get_none : forall sn (l : kvlog),
    Forall (fun p => owner (fst p) <> owner sn) l -> raw_get B sn l = None.
  Proof.
    intros sn l H; induction H as [|p t Hp _ IH]; [reflexivity|].
    change (p :: t) with ([p] ++ t). rewrite raw_get_app, IH. unfold raw_get. simpl.
    destruct (sname_eqb (fst p) sn) eqn:E; [|reflexivity].
    apply sname_eqb_true in E. rewrite E in Hp. congruence.
  Qed.

  Lemma conv_field_owner : forall msgp v l, conv_field B C msgp v = Ok l ->
    Forall (fun p => owner (fst p) = RValue) l.
  Proof.
    (* every branch of [conv_field] fails, writes nothing, or writes one typed slot *)
    intros msgp v l H. unfold conv_field in H.
    destruct v as [s|b|w n|w z|b|b|st b|s n|k st tok|tok|tok];
      try destruct w; try destruct st; try destruct k; cbn in H;
      try destruct (c_enc B C msgp _); try destruct (_ && _); try discriminate;
      injection H as <-; repeat constructor.
  Qed.

  Lemma enc_meta_owner : forall r omit v l, is_meta r = true -> enc_meta B r omit v = Ok l ->
    Forall (fun p => owner (fst p) = r) l.
  Proof.
    intros r omit v l Hm H.
    assert (Hone : forall p : payload B, Forall (fun q => owner (fst q) = r) [(meta_sname r, p)]).
    { intro p. constructor; [|constructor]. destruct r; try discriminate; reflexivity. }
    unfold enc_meta in H. destruct (omit && is_empty v); [injection H as <-; constructor|].
    destruct (is_time_role r); destruct v as [[|c s]| | | | | | |s n| | |]; try discriminate.
    - destruct (is_empty (VTime s n)); [destruct omit; [|discriminate]; injection H as <-; constructor|].
      injection H as <-. apply Hone.
    - injection H as <-. constructor.
    - injection H as <-. apply Hone.
  Qed.

  (* Every assignment a field makes goes to a slot owned by the role of its tag head.  Together
     with [raw_get_app] / [raw_get_none] this is the frame property: what the finished
     KeyValuePair holds in a role's slots is decided by the fields of that role alone. *)
  Theorem enc_field_owner : forall msgp f l, enc_field false msgp f = Ok l ->
    Forall (fun p => owner (fst p) = frole f) l.
  Proof.
    intros msgp [nm [tag|] v] l H; [|injection H as <-; constructor].
    rewrite enc_field_by_role in H. unfold frole; cbn [f_tag].
    destruct (is_meta (inspect_role tag)) eqn:Hmeta.
    { destruct (inspect_role tag); try discriminate Hmeta; exact (enc_meta_owner _ _ _ _ Hmeta H). }
    destruct (inspect_role tag); try discriminate Hmeta.
    - (* key *)
      destruct v as [[|c s]| | | | | | | | | |]; try discriminate. injection H as <-. repeat constructor.
    - (* value *)
      destruct (omit_test false tag && is_empty v).
      { destruct (is_empty v); injection H as <-; repeat constructor. }
      unfold res_app in H. destruct (conv_field B C msgp v) as [lc|e] eqn:Ec; [|discriminate].
      injection H as <-. apply Forall_app. split.
      + destruct (is_empty v); repeat constructor.
      + eapply conv_field_owner; exact Ec.
    - (* map-body field *) injection H as <-. constructor.
    - (* ignored *) injection H as <-. constructor.
  Qed.

  Lemma enc_fields_other_roles : forall msgp sn m l, enc_fields false msgp m = Ok l ->
    (forall g, In g m -> frole g <> owner sn) -> raw_get B sn l = None.
  Proof.
    intros msgp sn m; induction m as [|f t IH]; intros l H Hu; simpl in H.
    - injection H as <-. reflexivity.
    - destruct (enc_field false msgp f) as [lf|] eqn:Ef; [|discriminate].
      destruct (enc_fields false msgp t) as [lt|] eqn:Et; [|discriminate].
      injection H as <-. rewrite raw_get_app, (IH lt eq_refl) by (intros g Hg; apply Hu; right; exact Hg).
      apply raw_get_none. eapply Forall_impl; [|exact (enc_field_owner _ _ _ Ef)].
      intros p Hp. rewrite Hp. apply Hu. left; reflexivity.
  Qed.

  Theorem frame : forall msgp pre f post l sn,
    enc_fields false msgp (pre ++ f :: post) = Ok l ->
    owner sn = frole f ->
    (forall g, In g (pre ++ post) -> frole g <> frole f) ->
    exists lf, enc_field false msgp f = Ok lf /\ raw_get B sn l = raw_get B sn lf.
  Proof.
    intros msgp pre f post l sn H Ho Hu. rewrite <- Ho in Hu.
    rewrite enc_fields_app in H. simpl in H.
    destruct (enc_fields false msgp pre) as [l1|] eqn:E1; [|discriminate].
    destruct (enc_field false msgp f) as [lf|] eqn:Ef; [|discriminate].
    destruct (enc_fields false msgp post) as [l2|] eqn:E2; [|discriminate].
    injection H as <-. exists lf. split; [reflexivity|].
    rewrite !raw_get_app.
    rewrite (enc_fields_other_roles _ sn _ _ E2) by (intros g Hg; apply Hu, in_or_app; right; exact Hg).
    rewrite (enc_fields_other_roles _ sn _ _ E1) by (intros g Hg; apply Hu, in_or_app; left; exact Hg).
    destruct (raw_get B sn lf); reflexivity.
  Qed.

End Generic.

(* [canon] compares the bit pattern with that of -0.0 one binary digit at a time, so a fact about it
   at an unknown float is a walk down those digits; these two lemmas are the only such walks. *)
Lemma canon_F32 : forall b, canon (VF32 b) = VF32 (if b =? 2147483648 then 0 else b).
Proof.
  destruct b as [|p]; [reflexivity|].
  repeat (destruct p as [p|p|]; try reflexivity).
Qed.

Lemma canon_F64 : forall b, canon (VF64 b) = VF64 (if b =? 9223372036854775808 then 0 else b).
Proof.
  destruct b as [|p]; [reflexivity|].
  repeat (destruct p as [p|p|]; try reflexivity).
Qed.

Lemma value_eqb_refl : forall v, value_eqb v v = true.
Proof.
  destruct v; simpl; rewrite ?str_eqb_refl, ?N.eqb_refl, ?Z.eqb_refl, ?Bool.eqb_reflx; try reflexivity;
    try (destruct w; reflexivity); try (destruct st; reflexivity);
    destruct k; destruct st; reflexivity.
Qed.

Lemma zero_of_canon : forall v, zero_of (canon v) = zero_of v.
Proof.
  destruct v as [s|b|w n|w z|b|b|st b|s n|k st tok|tok|tok]; try reflexivity.
  - rewrite canon_F32. reflexivity.
  - rewrite canon_F64. reflexivity.
  - destruct st; reflexivity.
  - destruct k; destruct st; reflexivity.
Qed.

Lemma canon_idem : forall v, canon (canon v) = canon v.
Proof.
  destruct v as [s|b|w n|w z|b|b|st b|s n|k st tok|tok|tok]; try reflexivity.
  - rewrite !canon_F32. destruct (b =? 2147483648) eqn:E; [reflexivity | rewrite E; reflexivity].
  - rewrite !canon_F64. destruct (b =? 9223372036854775808) eqn:E; [reflexivity | rewrite E; reflexivity].
  - destruct st; reflexivity.
  - destruct k; destruct st; reflexivity.
Qed.

Section RoundTrip.
  Variable B : Type.
  Variable C : codec B.
  Hypothesis H_raw : forall b, c_unraw B C (c_raw B C b) = b.
  Hypothesis H_enc : forall msgp v b, c_enc B C msgp v = Some b ->
    exists v', c_dec B C b (zero_of v) = Some v' /\ canon v' = canon v.

  (* values for which the typed value slot is exact: no sub-second time, no plain struct, and
     the nil / empty / full state agrees with the content (true of every Go value) *)
  Definition value_exact (v : value) : bool :=
    match v with
    | VTime s n => N.eqb n 0 || is_empty v
    | VStruct _ | VOther _ => false
    | VBytes st b => match st, b with SFull, _ :: _ => true | SNil, [] | SEmpty, [] => true | _, _ => false end
    | VCx CPtr SEmpty _ => false
    | VCx _ SFull _ => true
    | VCx _ _ tok => N.eqb tok 0
    | _ => true
    end.

  (* An omitted empty value is read back as the fresh model's zero value: the same value to Go. *)
  Lemma empty_is_zero : forall v, is_empty v = true -> value_exact v = true -> canon (zero_of v) = canon v.
  Proof.
    intros v He Hx.
    destruct v as [s|b|w n|w z|b|b|st b|s n|k st tok|tok|tok]; simpl in He; try discriminate.
    - destruct s; [reflexivity|discriminate].
    - apply N.eqb_eq in He. subst. reflexivity.
    - apply Z.eqb_eq in He. subst. reflexivity.
    - apply orb_true_iff in He as [He|He]; apply N.eqb_eq in He; subst; reflexivity.
    - apply orb_true_iff in He as [He|He]; apply N.eqb_eq in He; subst; reflexivity.
    - destruct st; destruct b; try discriminate; reflexivity.
    - apply andb_true_iff in He as [Hs Hn]. apply Z.eqb_eq in Hs. apply N.eqb_eq in Hn. subst. reflexivity.
    - destruct k; destruct st; try discriminate; apply N.eqb_eq in Hx; subst; reflexivity.
  Qed.

  (* VoidVal is not one of the typed slots the gateway looks through.  (By induction over the
     slots: the two sides as a whole are nested matches that conversion compares branch by branch.) *)
  Lemma pick_content_void : forall p l, pick_content B ((SnVoid, p) :: l) = pick_content B l.
  Proof.
    intros p l. unfold pick_content. induction all_ranks as [|r t IH]; [reflexivity|].
    cbn [fold_right]. rewrite IH. reflexivity.
  Qed.

  (* The typed slot [conv_field] fills, taken by the gateway and set into a fresh field of the same
     type, is the value. *)
  Lemma conv_field_roundtrip : forall msgp v lc,
    value_exact v = true -> conv_field B C msgp v = Ok lc ->
    exists v', set_from B C (pick_content B lc) (zero_of v) = Ok v' /\ canon v' = canon v.
  Proof.
    intros msgp v lc Hx H.
    (* a struct and a chan/func are not exact *)
    destruct v as [s|b|w n|w z|b|b|st b|s n|k st tok|tok|tok]; try discriminate Hx.
    (* the scalars VStr, VBool, VU w, VI w, VF32, VF64: the slot holds the value itself *)
    1-6: try destruct w; injection H as <-; eexists; split; reflexivity.
    - (* []byte: stored raw; nil writes nothing *)
      destruct st; destruct b; try discriminate; injection H as <-; cbn; rewrite ?H_raw; eauto.
    - (* time: whole seconds only; the zero time writes nothing *)
      unfold conv_field in H. destruct (is_empty (VTime s n)) eqn:Ee; injection H as <-.
      + exists (zero_of (VTime s n)). split; [reflexivity | apply empty_is_zero; assumption].
      + cbn in Hx, Ee. rewrite Ee, orb_false_r in Hx. apply N.eqb_eq in Hx. subst. cbn. eauto.
    - (* slices, maps, pointers: through the codec; a nil pointer writes nothing *)
      assert (Hc : (k = CPtr /\ st = SNil /\ tok = 0 /\ lc = []) \/
                   exists b, c_enc B C msgp (VCx k st tok) = Some b /\
                             lc = [(SnTyped 12, PTyped B (SlBytes B b))]).
      { assert (Hcodec : match c_enc B C msgp (VCx k st tok) with
                         | Some b => Ok [(SnTyped 12, PTyped B (SlBytes B b))]
                         | None => Err ECodec
                         end = Ok lc ->
                         exists b, c_enc B C msgp (VCx k st tok) = Some b /\
                                   lc = [(SnTyped 12, PTyped B (SlBytes B b))]).
        { destruct (c_enc B C msgp _) as [b|]; [|discriminate]. intro E. injection E as <-. eauto. }
        destruct k; [right; destruct st; exact (Hcodec H)..|].
        destruct st; [left | discriminate Hx | right; exact (Hcodec H)].
        apply N.eqb_eq in Hx. injection H as <-. auto. }
      destruct Hc as [(-> & -> & -> & ->) | (b & He & ->)]; [cbn; eauto|].
      destruct (H_enc _ _ _ He) as (v' & Hd & Hv). exists v'. split; [|exact Hv].
      cbn [zero_of] in Hd. cbn. rewrite Hd. reflexivity.
  Qed.

  Theorem value_slot_roundtrip : forall msgp omit v l,
    value_exact v = true ->
    (if omit && is_empty v then Ok (if is_empty v then [(SnVoid, PBool B true)] else [])
     else res_app B (Ok (if is_empty v then [(SnVoid, PBool B true)] else [])) (conv_field B C msgp v)) = Ok l ->
    exists v', set_from B C (pick_content B l) (zero_of v) = Ok v' /\ canon v' = canon v.
  Proof.
    intros msgp omit v l Hx H.
    destruct (omit && is_empty v) eqn:Eo.
    - (* omitempty and empty: only VoidVal is set *)
      apply andb_true_iff in Eo as [_ Ee]. rewrite Ee in H. injection H as <-.
      exists (zero_of v). split; [reflexivity | apply empty_is_zero; assumption].
    - unfold res_app in H. destruct (conv_field B C msgp v) as [lc|] eqn:Ec; [|discriminate].
      injection H as <-.
      destruct (is_empty v); cbn [app]; [rewrite pick_content_void|];
        exact (conv_field_roundtrip msgp v lc Hx Ec).
  Qed.

End RoundTrip.

(* The witnesses spell: tags "key", "keywords", "values", "title"; values "d1", "alpha beta";
   Go field names "ID", "K", "V". *)
Definition w_key : str := [107;101;121].
Definition w_keywords : str := [107;101;121;119;111;114;100;115].
Definition w_values : str := [118;97;108;117;101;115].
Definition w_title : str := [116;105;116;108;101].
Definition w_d1 : str := [100;49].
Definition w_ab : str := [97;108;112;104;97;32;98;101;116;97].

Definition witness_keywords : list field :=
  [Build_field [73;68] (Some w_key) (VStr w_d1); Build_field [75] (Some w_keywords) (VStr w_ab)].
Definition witness_values : list field :=
  [Build_field [73;68] (Some w_key) (VStr w_d1); Build_field [86] (Some w_values) (VStr w_ab)].
Definition witness_title : list field :=
  [Build_field [73;68] (Some w_key) (VStr w_d1); Build_field [86] (Some w_title) (VStr w_ab)].

(* the symbolic codec used by the correspondence check satisfies the round-trip hypotheses *)
Lemma sym_raw : forall b, c_unraw sblob sym (c_raw sblob sym b) = b.
Proof. reflexivity. Qed.

Lemma sym_enc : forall msgp v b, c_enc sblob sym msgp v = Some b ->
  exists v', c_dec sblob sym b (zero_of v) = Some v' /\ canon v' = canon v.
Proof.
  intros msgp v b H. simpl in H. destruct (is_other v); [discriminate|]. injection H as <-.
  exists (canon v). split; [|apply canon_idem].
  cbn [c_dec sym]. unfold same_kind.
  assert (Hz : zero_of (zero_of v) = zero_of v) by (destruct v; reflexivity).
  rewrite zero_of_canon, Hz, value_eqb_refl. reflexivity.
Qed.

(* non-vacuity: the hypotheses of value_slot_roundtrip are satisfiable, e.g. by the symbolic codec
   and a pointer value with omitempty *)
Example value_slot_roundtrip_example :
  exists v', set_from sblob sym (pick_content sblob
     [(SnTyped 12, PTyped sblob (SlBytes sblob (BEnc true (VCx CPtr SFull 7))))]) (VCx CPtr SNil 0) = Ok v'
     /\ canon v' = canon (VCx CPtr SFull 7).
Proof.
  apply (value_slot_roundtrip sblob sym sym_raw sym_enc true true (VCx CPtr SFull 7)); reflexivity.
Qed.
