(* The three readers of a hydraide tag (Sdk/Tags.v): the model's reserved table against the compiled
   constants; with exact-head tests every test of the encoder and decoder chains is decided by the
   role inspectCatalogModel gives the tag ([tests_by_role]); with the substring tests of the code
   before the repair the readers still agree on tags that contain no reserved name. *)
From HV Require Import Base.Prelude Gen.C22Consts Sdk.Tags.
Local Open Scope N_scope.

Lemma str_eqb_eq : forall a b, str_eqb a b = true <-> a = b.
Proof. exact (list_eqb_eq N.eqb N.eqb_eq). Qed.

Lemma str_eqb_spec : forall a b, reflect (a = b) (str_eqb a b).
Proof. intros a b. apply iff_reflect. symmetry. apply str_eqb_eq. Qed.

Lemma str_eqb_refl : forall a, str_eqb a a = true.
Proof. intro a; apply str_eqb_eq; reflexivity. Qed.

Lemma str_eqb_sym : forall a b, str_eqb a b = str_eqb b a.
Proof. intros a b. apply Bool.eq_true_iff_eq. rewrite !str_eqb_eq. split; congruence. Qed.

(* Insertion sort in byte-wise lexicographic order, only to compare the names of [reserved_table]
   with the sorted list printed from reservedHydraideTagNames ([reserved_set_matches_code]). *)
Definition str_leb (a b : str) : bool :=
  (fix go (a b : str) : bool :=
     match a, b with
     | [], _ => true
     | _ :: _, [] => false
     | x :: a', y :: b' => if N.ltb x y then true else if N.eqb x y then go a' b' else false
     end) a b.

Fixpoint insert_sorted (x : str) (l : list str) : list str :=
  match l with
  | [] => [x]
  | y :: t => if str_leb x y then x :: l else y :: insert_sorted x t
  end.

Definition sort_strs (l : list str) : list str := fold_right insert_sorted [] l.

Lemma reserved_set_matches_code :
  sort_strs (map fst reserved_table) = reserved_names_sorted.
Proof. vm_compute. reflexivity. Qed.

Lemma reserved_names_distinct :
  forallb (fun p => forallb (fun q => Bool.eqb (str_eqb (fst p) (fst q)) (role_eqb (snd p) (snd q)))
                            reserved_table) reserved_table = true
  /\ forallb (fun p => negb (str_eqb (fst p) [])) reserved_table = true.
Proof. split; vm_compute; reflexivity. Qed.

Lemma lookup_first_match_head : forall tag chain,
  first_match false tag chain = lookup_name (head_of tag) chain.
Proof.
  intros tag chain; induction chain as [|[n r] t IH]; simpl; [reflexivity|].
  unfold tag_test. rewrite IH. reflexivity.
Qed.

Definition is_meta (r : role) : bool :=
  match r with RExpireAt | RCreatedBy | RCreatedAt | RUpdatedBy | RUpdatedAt => true | _ => false end.

(* by cases: the head is one of the seven reserved names, or none *)
Lemma tests_by_role : forall tag,
  enc_key_test false tag = role_eqb (inspect_role tag) RKey /\
  tag_test false tag_value tag = role_eqb (inspect_role tag) RValue /\
  first_match false tag meta_chain = if is_meta (inspect_role tag) then Some (inspect_role tag) else None.
Proof.
  intro tag. unfold enc_key_test, tag_test, inspect_role. rewrite lookup_first_match_head.
  generalize (head_of tag) as h. intro h. unfold reserved_table, meta_chain. cbn [lookup_name].
  destruct (str_eqb_spec h tag_key) as [->|_]; [repeat split|].
  destruct (str_eqb_spec h tag_value) as [->|_]; [repeat split|].
  destruct (str_eqb_spec h tag_expireAt) as [->|_]; [repeat split|].
  destruct (str_eqb_spec h tag_createdBy) as [->|_]; [repeat split|].
  destruct (str_eqb_spec h tag_createdAt) as [->|_]; [repeat split|].
  destruct (str_eqb_spec h tag_updatedBy) as [->|_]; [repeat split|].
  destruct (str_eqb_spec h tag_updatedAt) as [->|_]; [repeat split|].
  (* no reserved name: the empty head is RNone, any other a body name *)
  destruct h; repeat split.
Qed.

Example tag_dispatch_examples :
  (* "keywords" and "values,omitempty" are body fields for all three readers;
     "value,omitempty" and "key" are the value and the key for all three. *)
  let keywords := [107;101;121;119;111;114;100;115] in
  let values_o := [118;97;108;117;101;115;44;111;109;105;116;101;109;112;116;121] in
  let value_o := [118;97;108;117;101;44;111;109;105;116;101;109;112;116;121] in
  (inspect_role keywords, enc_roles false keywords, dec_role false keywords) = (RBody keywords, [], None) /\
  (inspect_role values_o, enc_roles false values_o, dec_role false values_o, has_omit values_o)
     = (RBody [118;97;108;117;101;115], [], None, true) /\
  (inspect_role value_o, enc_roles false value_o, dec_role false value_o, has_omit value_o)
     = (RValue, [RValue], Some RValue, true) /\
  (inspect_role tag_key, enc_roles false tag_key, dec_role false tag_key) = (RKey, [RKey], Some RKey).
Proof. vm_compute. repeat split. Qed.

Lemma first_match_none_sub : forall tag chain,
  (forall n r, In (n, r) chain -> containsb n tag = false) ->
  first_match true tag chain = None.
Proof.
  intros tag chain; induction chain as [|[n r] t IH]; intro H; [reflexivity|].
  cbn [first_match tag_test]. rewrite (H n r) by (left; reflexivity).
  apply IH. intros n' r' Hin. apply (H n' r'). right. exact Hin.
Qed.

Lemma lookup_name_In : forall n r tbl, lookup_name n tbl = Some r -> In (n, r) tbl.
Proof.
  intros n r tbl; induction tbl as [|[k r'] t IH]; simpl; [discriminate|].
  destruct (str_eqb_spec n k) as [->|_]; [|auto]. intro H; injection H as ->. left; reflexivity.
Qed.

Lemma prefixb_refl : forall s, prefixb s s = true.
Proof. induction s as [|c s IH]; simpl; [reflexivity|]. rewrite N.eqb_refl, IH. reflexivity. Qed.

Lemma prefixb_containsb : forall n s, prefixb n s = true -> containsb n s = true.
Proof. intros n [|c s] H; simpl; [exact H|]. rewrite H. reflexivity. Qed.

Lemma containsb_self : forall s, containsb s s = true.
Proof. intro s. apply prefixb_containsb, prefixb_refl. Qed.

Lemma containsb_head_of : forall tag, containsb (head_of tag) tag = true.
Proof.
  intro tag. apply prefixb_containsb. induction tag as [|c t IH]; simpl; [reflexivity|].
  destruct (c =? comma); [reflexivity|]. simpl. rewrite N.eqb_refl. exact IH.
Qed.

Theorem tag_dispatch_partial_substring : forall tag,
  no_reserved_substring tag = true ->
  enc_roles true tag = reserved_part (inspect_role tag) /\
  dec_role true tag = reserved_opt (inspect_role tag) /\
  reserved_part (inspect_role tag) = [].
Proof.
  intros tag H.
  assert (Hn : forall n r, In (n, r) reserved_table -> containsb n tag = false).
  { intros n r Hin. unfold no_reserved_substring in H. rewrite forallb_forall in H.
    apply negb_true_iff. exact (H _ Hin). }
  (* the head is not a reserved name: it would be contained in the tag *)
  assert (Hi : reserved_part (inspect_role tag) = [] /\ reserved_opt (inspect_role tag) = None).
  { unfold inspect_role. destruct (head_of tag) as [|c h] eqn:Eh; [split; reflexivity|].
    destruct (lookup_name (c :: h) reserved_table) as [r|] eqn:El; [|split; reflexivity].
    apply lookup_name_In, Hn in El. rewrite <- Eh, containsb_head_of in El. discriminate. }
  destruct Hi as [Hp Ho]. rewrite Hp, Ho. split; [|split; [|reflexivity]].
  - unfold enc_roles, enc_key_test, tag_test.
    rewrite (Hn tag_value RValue) by (right; left; reflexivity).
    rewrite first_match_none_sub by (intros n r Hin; apply (Hn n r); right; right; exact Hin).
    (* the old key test compared the whole tag, which then contains "key" *)
    destruct (str_eqb_spec tag tag_key) as [->|_]; [|reflexivity].
    specialize (Hn tag_key RKey (or_introl eq_refl)). rewrite containsb_self in Hn. discriminate.
  - apply first_match_none_sub. exact Hn.
Qed.

Example tag_dispatch_partial_nonvacuous :
  no_reserved_substring [116;105;116;108;101;44;111;109;105;116;101;109;112;116;121] = true /\
  inspect_role [116;105;116;108;101;44;111;109;105;116;101;109;112;116;121] = RBody [116;105;116;108;101].
Proof. vm_compute. split; reflexivity. Qed.
