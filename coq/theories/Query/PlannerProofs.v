(* The planner is sound: for every plan it produces, the full-scan value of the group (match decision
   and collected labels) is recovered from the bucket lookup of the hints and the scan of the
   residual. *)
From HV Require Import Base.Prelude Query.Canon Query.Filter Query.Planner Query.Routes Query.FilterProofs.
Local Open Scope string_scope.
Local Open Scope list_scope.

Definition idb (b : bool) : bool := b.

Lemma combine_and : forall rs, combine_results false rs = forallb (fun b => b) rs.
Proof. destruct rs; reflexivity. Qed.

Lemma combine_or_cons : forall x rs, combine_results true (x :: rs) = existsb (fun b => b) (x :: rs).
Proof. reflexivity. Qed.

Lemma combine_and_remove : forall (A B : list bool) x,
  combine_results false (A ++ x :: B) = x && combine_results false (A ++ B).
Proof.
  intros A B x. rewrite !combine_and, !forallb_app. simpl.
  destruct x, (forallb (fun b => b) A), (forallb (fun b => b) B); reflexivity.
Qed.

Lemma remove_at_app {A} : forall (pre post : list A) x, remove_at (List.length pre) (pre ++ x :: post) = pre ++ post.
Proof. induction pre as [|a t IH]; intros; simpl; [reflexivity | rewrite IH; reflexivity]. Qed.

Lemma flat_map_remove {A B} (f : A -> list B) : forall pre post x,
  f x = [] -> flat_map f (pre ++ x :: post) = flat_map f (pre ++ post).
Proof. intros. rewrite !flat_map_app. simpl. rewrite H. reflexivity. Qed.

(* [first_leg] and [first_sub] are one search, given here by its two equations *)
Lemma first_spec {A B} (f : A -> option B) (first : nat -> list A -> option (nat * A * B)) :
  (forall i x t, first i (x :: t) = match f x with Some y => Some (i, x, y) | None => first (S i) t end) ->
  (forall i, first i [] = None) ->
  forall l i j x y, first i l = Some (j, x, y) ->
  exists pre post, l = pre ++ x :: post /\ j = (i + List.length pre)%nat /\ f x = Some y.
Proof.
  intros Hcons Hnil. induction l as [|a t IH]; intros i j x y H; [rewrite Hnil in H; discriminate|].
  rewrite Hcons in H. destruct (f a) eqn:E.
  - injection H as <- <- <-. exists [], t. simpl. rewrite Nat.add_0_r. auto.
  - apply IH in H as (pre & post & -> & -> & Hy). exists (a :: pre), post. simpl.
    rewrite Nat.add_succ_r. auto.
Qed.

Lemma first_leg_none : forall ih legs i, first_leg ih i legs = None -> forall l, In l legs -> ih l = None.
Proof.
  intros ih. induction legs as [|a t IH]; intros i H l Hin; simpl in *; [contradiction|].
  destruct (ih a) eqn:E; [discriminate|]. destruct Hin as [<-|Hin]; [exact E | eapply IH; eauto].
Qed.

Lemma all_hints_eval : forall r legs hs,
  all_hints indexable_hint legs = Some hs -> not_raw r ->
  existsb (fun b => b) (map (scan_leg r) legs) = matches_hints r hs.
Proof.
  intros r. induction legs as [|l t IH]; intros hs H Hr; simpl in H.
  - inversion H; subst. reflexivity.
  - destruct (indexable_hint l) eqn:E1; [|discriminate].
    destruct (all_hints indexable_hint t) eqn:E2; [|discriminate].
    inversion H; subst. simpl. rewrite (leg_semantics_agree r l h E1 Hr). rewrite (IH _ eq_refl Hr). reflexivity.
Qed.

Lemma all_hints_nil : forall ih legs, all_hints ih legs = Some [] -> legs = [].
Proof.
  intros ih [|l t] H; [reflexivity|]. simpl in H.
  destruct (ih l); [|discriminate]. destruct (all_hints ih t); discriminate.
Qed.

Lemma no_labels_legs : forall (legf : rec -> leg -> bool) r legs,
  existsb (fun l => negb (String.eqb (llabel l) "")) legs = false ->
  flat_map (fun l => lab (legf r l) (llabel l)) legs = [].
Proof.
  induction legs as [|l t IH]; intros H; simpl in *; [reflexivity|].
  apply orb_false_iff in H as [H1 H2]. rewrite (IH H2). unfold lab.
  apply negb_false_iff in H1. rewrite H1. simpl. rewrite andb_false_r. reflexivity.
Qed.

(* [g_or g = true] is a hypothesis: planOr itself does not look at the flag *)
Lemma plan_or_sound : forall g hs resid r,
  g_or g = true -> plan_or indexable_hint true g = POrUnion hs resid -> not_raw r ->
  eval_group scan_leg r g = matches_hints r hs
  /\ resid = (if has_labels g then Some g else None)
  /\ (has_labels g = false -> glabels scan_leg r g = []).
Proof.
  intros [o legs subs opq] hs resid r Ho H Hr. simpl in Ho. subst o. unfold plan_or in H.
  destruct subs; [|discriminate]. destruct opq; [|discriminate].
  destruct (all_hints indexable_hint legs) as [[|h0 hs0]|] eqn:E; try discriminate.
  injection H as <- <-. destruct legs as [|l t]; [discriminate|].
  split; [|split; [reflexivity|]].
  - simpl eval_group. rewrite !app_nil_r. apply (all_hints_eval r _ _ E Hr).
  - simpl. rewrite !orb_false_r, !app_nil_r. apply (no_labels_legs scan_leg r (l :: t)).
Qed.

Theorem planner_sound_or : forall g hs resid r,
  plan_filter g = POrUnion hs resid -> not_raw r ->
  eval_group scan_leg r g = matches_hints r hs
  /\ match resid with
     | Some g' => g' = g
     | None => glabels scan_leg r g = []
     end.
Proof.
  intros g hs resid r H Hr. unfold plan_filter, plan_filter_gen in H.
  destruct (is_empty_group g); [discriminate|].
  destruct (g_or g) eqn:Eo.
  - destruct (plan_or_sound g hs resid r Eo H Hr) as (He & -> & Hl). split; [exact He|].
    destruct (has_labels g); [reflexivity | apply Hl; reflexivity].
  - destruct g as [o legs subs opq]. simpl in H.
    destruct (first_leg indexable_hint 0 legs) as [[[i l] h]|]; [discriminate|].
    destruct (first_sub indexable_hint true 0 subs) as [[[i s] hs']|]; discriminate.
Qed.

Theorem planner_sound_and : forall g hs resid r,
  plan_filter g = PAnd hs resid -> not_raw r ->
  eval_group scan_leg r g = matches_hints r hs && eval_group scan_leg r resid
  /\ glabels scan_leg r resid = glabels scan_leg r g.
Proof.
  intros g hs resid r H Hr. unfold plan_filter, plan_filter_gen in H.
  destruct (is_empty_group g); [discriminate|].
  destruct g as [o legs subs opq]. destruct o; simpl in H.
  { destruct subs; [|discriminate]. destruct opq; [|discriminate].
    destruct (all_hints indexable_hint legs) as [[|h0 hs0]|]; discriminate. }
  destruct (first_leg indexable_hint 0 legs) as [[[i l] h]|] eqn:Ef.
  - (* the first indexable leg is consumed; it stays in the residual when it has a label *)
    apply (first_spec indexable_hint) in Ef as (pre & post & -> & -> & Hh); [|reflexivity..].
    simpl in H. rewrite remove_at_app in H.
    assert (Hev : eval_group scan_leg r (Grp false (pre ++ l :: post) subs opq)
                  = matches_hints r [h] && eval_group scan_leg r (Grp false (pre ++ post) subs opq)).
    { simpl. rewrite orb_false_r, <- (leg_semantics_agree r l h Hh Hr), !map_app. simpl map.
      rewrite <- !app_assoc. apply combine_and_remove. }
    destruct (String.eqb (llabel l) "") eqn:El; simpl in H; injection H as <- <-.
    + split; [exact Hev|]. simpl glabels. f_equal. symmetry. apply flat_map_remove.
      unfold lab. rewrite El, andb_false_r. reflexivity.
    + split; [|reflexivity]. rewrite Hev. destruct (matches_hints r [h]); reflexivity.
  - (* else the first OR sub-group that planOr can turn into a union *)
    destruct (first_sub indexable_hint true 0 subs) as [[[i s] hs']|] eqn:Es; [|discriminate].
    apply (first_spec (sub_union indexable_hint true)) in Es as (pre & post & -> & -> & Hu);
      [|reflexivity..].
    simpl in H. rewrite remove_at_app in H.
    unfold sub_union in Hu. destruct (is_empty_group s); [discriminate|].
    destruct (g_or s) eqn:Eos; [|discriminate].
    destruct (plan_or indexable_hint true s) as [| |hs2 rs2] eqn:Ep; try discriminate.
    injection Hu as ->. destruct (plan_or_sound s hs' rs2 r Eos Ep Hr) as (Hs & _ & Hl).
    assert (Hev : eval_group scan_leg r (Grp false legs (pre ++ s :: post) opq)
                  = matches_hints r hs' && eval_group scan_leg r (Grp false legs (pre ++ post) opq)).
    { rewrite <- Hs. simpl eval_group. rewrite !map_app. simpl map. rewrite <- !app_assoc. simpl.
      rewrite !(app_assoc (map (scan_leg r) legs)). apply combine_and_remove. }
    destruct (has_labels s) eqn:El; simpl in H; injection H as <- <-.
    + split; [|reflexivity]. rewrite Hev. destruct (matches_hints r hs'); reflexivity.
    + split; [exact Hev|]. simpl glabels. f_equal. f_equal. symmetry. apply flat_map_remove.
      destruct (eval_group scan_leg r s); [apply Hl|]; reflexivity.
Qed.

(* the planner consumes a labelled leg, on a matching record *)
Example planner_sound_and_example :
  let g := Grp false [mkLeg OpGt (CInt 64 0) "b" "big" [] []; mkLeg OpEq (CInt 64 1) "a" "L1" [] []] [] [] in
  let r := mkRec "k" 0 0 0 (BMap true [("a", VFloat 4607182418800017408); ("b", VInt 3)]) in
  exists hs resid, plan_filter g = PAnd hs resid /\ not_raw r /\ eval_group scan_leg r g = true
                   /\ matches_hints r hs = true /\ glabels scan_leg r resid = ["big"; "L1"].
Proof. do 2 eexists. split; [vm_compute; reflexivity|]. vm_compute. repeat split. Qed.
