(* Query/FilterProofs.v — leg semantics: on a plain dotted path the full-scan evaluation of an
   indexable leg equals the bucket lookup (valuecanon.Equal on the canonical key), for every
   body except a msgpack map without the magic prefix. *)
From HV Require Import Base.Prelude Query.Canon Query.Filter Query.Planner Query.Routes.
Local Open Scope string_scope.
Local Open Scope Z_scope.

Arguments String.eqb : simpl never.
Arguments strip_star : simpl never.
Arguments canon_equal : simpl never.
Arguments split_dot : simpl never.

Lemma extract_parts_plain : forall parts cur,
  forallb plain_part parts = true -> extract_parts cur parts = XVal (plain_parts cur parts).
Proof.
  induction parts as [|p rest IH]; intros cur H; simpl in *.
  - reflexivity.
  - apply andb_true_iff in H as [Hp Hr]. unfold plain_part in Hp.
    apply andb_true_iff in Hp as [Hlen Hstar].
    destruct (String.eqb p "#len") eqn:E1; [discriminate|].
    destruct (strip_star p) eqn:E2; [discriminate|].
    destruct cur; try reflexivity.
    destruct (lookup p l) eqn:E3; [apply IH; exact Hr | reflexivity].
Qed.

Lemma extract_path_plain : forall d path,
  plain_path path = true -> extract_path d path = XVal (plain_extract d path).
Proof.
  intros d path H. unfold extract_path, plain_extract.
  destruct (String.eqb path ""); [reflexivity|].
  apply extract_parts_plain. exact H.
Qed.

Lemma canon_null_cmp : forall c k, cmp_key c = Some k -> canon_equal KNull k = false.
Proof. intros c k H. destruct c; try discriminate; injection H as <-; reflexivity. Qed.

Lemma existsb_map {A B} (f : A -> B) (p : B -> bool) l : existsb p (map f l) = existsb (fun a => p (f a)) l.
Proof. induction l; simpl; [reflexivity|]. rewrite IHl. reflexivity. Qed.

Lemma str_in_canon : forall fv l, str_in fv l = existsb (canon_equal (canonicalize fv)) (map KStr l).
Proof.
  intros fv l. rewrite existsb_map.
  destruct fv; simpl;
    (induction l as [|a t IH]; simpl; [reflexivity | rewrite <- IH; reflexivity]).
Qed.

Lemma int_in_canon : forall fv l, int_in fv l = existsb (canon_equal (canonicalize fv)) (map KInt l).
Proof.
  intros fv l. unfold int_in. rewrite existsb_map.
  destruct fv; simpl; try reflexivity.
  induction l as [|a t IH]; simpl; [reflexivity | rewrite <- IH; reflexivity].
Qed.

(* the body is not a msgpack map without the magic prefix (an opaque body is allowed and behaves
   like the nil value) *)
Definition not_raw (r : rec) : Prop := match rbody r with BMap false _ => False | _ => True end.

(* the repaired scan of a leg on the value [fv] that the path extracts *)
Definition leg_on_value (l : leg) (fv : val) : bool :=
  match lop l with
  | OpStrIn => str_in fv (lstrs l)
  | OpI32In | OpI64In => int_in fv (lints l)
  | OpIsEmpty => empty_val fv
  | OpIsNotEmpty => negb (empty_val fv)
  | OpEq => if is_nil fv then false
            else match cmp_key (lcmp l) with Some k => canon_equal (canonicalize fv) k | None => false end
  | o => if is_nil fv then false else typed_compare o (lcmp l) fv
  end.

Lemma hint_on_value : forall c l h r fv,
  indexable_hint_gen c l = Some h -> bucket_key r (lpath l) = canonicalize fv ->
  leg_on_value l fv = matches_hint r h.
Proof.
  intros c l h r fv H Hk. unfold indexable_hint_gen in H. destruct (_ || _); [discriminate|].
  unfold leg_on_value. destruct (lop l); try discriminate.
  - (* OpEq *)
    destruct (cmp_key (lcmp l)) as [k|] eqn:Ek; [|discriminate]. injection H as <-. simpl. rewrite Hk.
    destruct fv; try reflexivity. symmetry. exact (canon_null_cmp _ _ Ek).
  - (* OpStrIn *) destruct (lstrs l); [discriminate|]. injection H as <-. simpl. rewrite Hk. apply str_in_canon.
  - (* OpI32In *) destruct (lints l); [discriminate|]. injection H as <-. simpl. rewrite Hk. apply int_in_canon.
  - (* OpI64In *) destruct (lints l); [discriminate|]. injection H as <-. simpl. rewrite Hk. apply int_in_canon.
Qed.

Theorem leg_semantics_agree : forall r l h,
  indexable_hint l = Some h -> not_raw r -> scan_leg r l = matches_hint r h.
Proof.
  intros r l h Hih Hraw. pose proof Hih as Hp. unfold indexable_hint, indexable_hint_gen in Hp.
  destruct (String.eqb (lpath l) ""); [discriminate|].
  destruct (plain_path (lpath l)) eqn:Ep; [|discriminate]. clear Hp.
  unfold scan_leg, eval_leg_gen, not_raw in *.
  destruct (rbody r) as [[|] d|] eqn:Eb; [|contradiction|].
  - transitivity (leg_on_value l (plain_extract d (lpath l))).
    + unfold eval_leg_doc. rewrite (extract_path_plain d _ Ep). reflexivity.
    + apply (hint_on_value _ _ _ _ _ Hih). unfold bucket_key. rewrite Eb. reflexivity.
  - transitivity (leg_on_value l VNil); [unfold leg_on_value; destruct (lop l); reflexivity|].
    apply (hint_on_value _ _ _ _ _ Hih). unfold bucket_key. rewrite Eb. reflexivity.
Qed.

(* the hypotheses are satisfiable and the conclusion is not vacuous: a = uint8 5 matches float 5.0 *)
Example leg_semantics_agree_example :
  let r := mkRec "k" 0 0 0 (BMap true [("a", VUint 5)]) in
  let l := mkLeg OpEq (CFloat 64 4617315517961601024) "a" "" [] [] in
  exists h, indexable_hint l = Some h /\ not_raw r /\ scan_leg r l = true /\ matches_hint r h = true.
Proof. exists (HEq "a" (KFloat 4617315517961601024)). vm_compute. repeat split. Qed.
