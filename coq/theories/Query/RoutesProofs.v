(* Query/RoutesProofs.v — C08: the accelerated route and the full-scan route of the repaired
   GetByIndexStream agree, for every swamp contents, beacon order, tie order and request, as long
   as no body is a msgpack map without the magic prefix (for which the statement is refuted):
   equal outputs for paged requests ([exact_paged]); for unpaged bucket-routed requests two sorted
   lists that are permutations of each other, each then cut to MaxResults
   ([routes_agree_unpaged]). The model of the route before the paging fix ([accel_route_legacy])
   and the two refutations stand here as well.
   Also the bucket invariant: incremental maintenance with a build in flight equals a fresh
   build. *)
From HV Require Import Base.Prelude Query.Canon Query.Filter Query.Planner Query.Routes
     Query.FilterProofs Query.PlannerProofs.
From Coq Require Import Permutation Sorted.
Local Open Scope string_scope.
Local Open Scope list_scope.
Local Open Scope Z_scope.

Lemma perm_filter {A} (p : A -> bool) : forall l l', Permutation l l' -> Permutation (filter p l) (filter p l').
Proof.
  induction 1; simpl.
  - constructor.
  - destruct (p x); [constructor|]; assumption.
  - destruct (p x), (p y); first [apply perm_swap | apply Permutation_refl].
  - eapply Permutation_trans; eauto.
Qed.

Lemma filter_filter {A} (p q : A -> bool) : forall l, filter p (filter q l) = filter (fun x => q x && p x) l.
Proof.
  induction l as [|a t IH]; simpl; [reflexivity|].
  destruct (q a); simpl; [destruct (p a); rewrite IH; reflexivity | exact IH].
Qed.

Lemma sorted_filter {A} (R : A -> A -> Prop) (p : A -> bool) : forall l,
  StronglySorted R l -> StronglySorted R (filter p l).
Proof.
  induction 1; simpl; [constructor|]. destruct (p a); [|assumption].
  constructor; [assumption|]. rewrite Forall_forall in *. intros x Hx. apply filter_In in Hx as [Hx _]. auto.
Qed.

Lemma mem_candidates : forall (m : rec -> bool) contents r,
  NoDup (map rkey contents) -> In r contents ->
  mem_str (rkey r) (map rkey (filter m contents)) = m r.
Proof.
  induction contents as [|a t IH]; intros r Hnd Hin; simpl in *; [contradiction|].
  inversion Hnd as [|? ? Hna Hnd']; subst.
  destruct Hin as [->|Hin].
  - destruct (m r) eqn:Em; simpl.
    + rewrite String.eqb_refl. reflexivity.
    + destruct (mem_str (rkey r) (map rkey (filter m t))) eqn:E; [|reflexivity].
      exfalso. apply Hna. apply existsb_exists in E as (k & Hk & E).
      apply String.eqb_eq in E. subst k. apply in_map_iff in Hk as (x & Hx & Hf).
      apply filter_In in Hf as [Hf _]. apply in_map_iff. eauto.
  - assert (Hne : String.eqb (rkey r) (rkey a) = false).
    { apply String.eqb_neq. intros E. apply Hna. rewrite <- E. apply in_map. assumption. }
    destruct (m a); simpl; [rewrite Hne; simpl|]; apply IH; assumption.
Qed.

Theorem scan_wrap : forall legf ord q f, scan_route legf ord q (wrap f) = scan_route legf ord q f.
Proof.
  intros. unfold scan_route, emit. f_equal. simpl.
  erewrite filter_ext; [|intro r; rewrite orb_false_r; reflexivity].
  apply map_ext_in. intros x Hx. apply filter_In in Hx as [_ Hx].
  apply andb_true_iff in Hx as [_ Hx]. rewrite !app_nil_r, Hx. reflexivity.
Qed.

Definition all_not_raw (contents : list rec) : Prop := forall r, In r contents -> not_raw r.

Definition rowf (f : group) (r : rec) : row := (rkey r, glabels scan_leg r f).

Definition hints_of (p : plan) : list hint :=
  match p with PAnd hs _ => hs | POrUnion hs _ => hs | PBypass => [] end.

(* what the accelerated route still evaluates on a candidate, and the labels it reports *)
Definition resid_pred (p : plan) (r : rec) : bool :=
  match p with
  | PAnd _ resid => eval_group scan_leg r resid
  | POrUnion _ (Some g) => eval_group scan_leg r g
  | _ => true
  end.

Definition resid_labels (p : plan) (r : rec) : list string :=
  match p with
  | PAnd _ resid => glabels scan_leg r resid
  | POrUnion _ (Some g) => glabels scan_leg r g
  | _ => []
  end.

(* the rows the two routes emit, before MaxResults, as record lists *)
Definition scan_recs (ord : list rec) (q : req) : list rec :=
  filter (fun r => keys_ok q r && eval_group scan_leg r (qfilter q)) (beacon_page ord q).

Definition accel_recs (contents ord srt : list rec) (q : req) : list rec :=
  filter (fun r => keys_ok q r && resid_pred (plan_filter (qfilter q)) r)
         (bucket_rows contents ord srt q (hints_of (plan_filter (qfilter q)))).

(* what the planner guarantees, in the form both route proofs use: on a record that is not raw the
   scan predicate of F is "candidate and residual", and the labels are those of F *)
Lemma plan_sound : forall f r,
  not_raw r -> plan_filter f <> PBypass ->
  eval_group scan_leg r f = matches_hints r (hints_of (plan_filter f)) && resid_pred (plan_filter f) r
  /\ resid_labels (plan_filter f) r = glabels scan_leg r f.
Proof.
  intros f r Hr Hnb. destruct (plan_filter f) as [|hs resid|hs [g|]] eqn:E; [congruence| | |]; simpl.
  - exact (planner_sound_and f hs resid r E Hr).
  - destruct (planner_sound_or f hs _ r E Hr) as [He ->]. rewrite He.
    split; [destruct (matches_hints r hs)|]; reflexivity.
  - destruct (planner_sound_or f hs _ r E Hr) as [He Hl]. rewrite andb_true_r. auto.
Qed.

(* both routes are [take_max] of [rowf] mapped over these record lists: the scan route by definition;
   for the accelerated route it takes the planner *)
Lemma scan_route_recs : forall ord q,
  scan_route scan_leg ord q (qfilter q) = take_max (qmax q) (map (rowf (qfilter q)) (scan_recs ord q)).
Proof. reflexivity. Qed.

Lemma accel_route_recs : forall contents ord srt q,
  plan_filter (qfilter q) <> PBypass ->
  (forall r, In r (bucket_rows contents ord srt q (hints_of (plan_filter (qfilter q)))) -> not_raw r) ->
  accel_route scan_leg contents ord srt q
  = take_max (qmax q) (map (rowf (qfilter q)) (accel_recs contents ord srt q)).
Proof.
  intros contents ord srt q Hnb Hrows.
  transitivity (take_max (qmax q)
    (map (fun r => (rkey r, resid_labels (plan_filter (qfilter q)) r)) (accel_recs contents ord srt q))).
  { unfold accel_route, accel_recs, emit.
    destruct (plan_filter (qfilter q)) as [|hs resid|hs [g|]]; [congruence|..]; reflexivity. }
  f_equal. apply map_ext_in. intros x Hx. apply filter_In in Hx as [Hx _].
  unfold rowf. f_equal. apply (plan_sound (qfilter q) x (Hrows x Hx) Hnb).
Qed.

Lemma In_firstn_skipn {A} : forall n (l : list A) x, In x (firstn n l) \/ In x (skipn n l) -> In x l.
Proof. intros n l x H. rewrite <- (firstn_skipn n l). apply in_or_app, H. Qed.

Lemma beacon_page_incl : forall ord q r, In r (beacon_page ord q) -> In r ord.
Proof.
  intros ord q r Hr. unfold beacon_page, page in Hr.
  assert (H : In r (filter (in_window q) ord)); [|apply filter_In in H; tauto].
  apply (In_firstn_skipn (Z.to_nat (qfrom q))). right.
  destruct (qlimit q =? 0); [exact Hr|]. apply (In_firstn_skipn (Z.to_nat (qlimit q))). left. exact Hr.
Qed.

Lemma paged_rows : forall contents ord srt q hs,
  NoDup (map rkey contents) -> incl ord contents -> paged q = true ->
  bucket_rows contents ord srt q hs = filter (fun r => matches_hints r hs) (beacon_page ord q).
Proof.
  intros contents ord srt q hs Hnd Hincl Hpg. unfold bucket_rows. rewrite Hpg.
  apply filter_ext_in. intros r Hr.
  apply (mem_candidates (fun r => matches_hints r hs) contents r Hnd).
  apply Hincl, (beacon_page_incl _ _ _ Hr).
Qed.

Lemma exact_paged : forall contents ord srt q,
  NoDup (map rkey contents) -> all_not_raw contents -> incl ord contents ->
  paged q = true -> plan_filter (qfilter q) <> PBypass ->
  accel_route scan_leg contents ord srt q = scan_route scan_leg ord q (qfilter q).
Proof.
  intros contents ord srt q Hnd Hraw Hincl Hpg Hnb.
  assert (Hin : forall r, In r (beacon_page ord q) -> not_raw r).
  { intros r Hr. apply Hraw, Hincl, (beacon_page_incl _ _ _ Hr). }
  rewrite accel_route_recs; [|exact Hnb|]; unfold accel_recs;
    rewrite (paged_rows _ _ _ _ _ Hnd Hincl Hpg).
  - rewrite scan_route_recs. f_equal. f_equal. unfold scan_recs.
    rewrite filter_filter. apply filter_ext_in. intros r Hr.
    destruct (plan_sound (qfilter q) r (Hin r Hr) Hnb) as [-> _].
    destruct (matches_hints r (hints_of (plan_filter (qfilter q)))), (keys_ok q r); reflexivity.
  - intros r Hr. apply filter_In in Hr as [Hr _]. exact (Hin r Hr).
Qed.

Definition sortedR (q : req) : rec -> rec -> Prop := fun a b => sort_leb (qidx q) (qdesc q) a b = true.

Theorem routes_agree_unpaged : forall (R : rec -> rec -> Prop) contents ord srt q,
  all_not_raw contents ->
  Permutation ord (filter (eligible (qidx q)) contents) -> StronglySorted R ord ->
  Permutation srt (bucket_unsorted contents q (hints_of (plan_filter (qfilter q)))) ->
  StronglySorted R srt ->
  paged q = false -> plan_filter (qfilter q) <> PBypass ->
  exists S B,
    scan_route scan_leg ord q (wrap (qfilter q)) = take_max (qmax q) (map (rowf (qfilter q)) S)
    /\ accel_route scan_leg contents ord srt q = take_max (qmax q) (map (rowf (qfilter q)) B)
    /\ Permutation S B /\ StronglySorted R S /\ StronglySorted R B.
Proof.
  intros R contents ord srt q Hraw Hord Hsord Hsrt Hssrt Hpg Hnb.
  set (hs := hints_of (plan_filter (qfilter q))) in *.
  assert (Hpage : forall l, page q l = l).
  { intros l. unfold paged in Hpg. apply orb_false_iff in Hpg as [H1 H2].
    apply negb_false_iff in H1, H2. unfold page. rewrite H2. apply Z.eqb_eq in H1. rewrite H1. reflexivity. }
  assert (Hsrt_in : forall r, In r srt -> In r contents).
  { intros r Hr. apply (Permutation_in _ Hsrt) in Hr. unfold bucket_unsorted, candidates in Hr.
    do 3 apply incl_filter in Hr. exact Hr. }
  exists (scan_recs ord q), (accel_recs contents ord srt q). split; [|split; [|split; [|split]]].
  - rewrite scan_wrap. apply scan_route_recs.
  - apply accel_route_recs; [exact Hnb|]. intros r Hr. unfold bucket_rows in Hr. rewrite Hpg in Hr.
    apply Hraw, Hsrt_in, Hr.
  - unfold scan_recs, accel_recs, bucket_rows, beacon_page. rewrite Hpg, Hpage.
    eapply Permutation_trans; [apply perm_filter, perm_filter, Hord|].
    eapply Permutation_trans; [|apply Permutation_sym, perm_filter, Hsrt].
    unfold bucket_unsorted, candidates. rewrite !filter_filter.
    erewrite filter_ext_in; [apply Permutation_refl|].
    intros r Hr. cbv beta. destruct (plan_sound (qfilter q) r (Hraw r Hr) Hnb) as [-> _]. fold hs.
    destruct (matches_hints r hs), (eligible (qidx q) r), (in_window q r), (keys_ok q r); reflexivity.
  - unfold scan_recs, beacon_page. rewrite Hpage. apply sorted_filter, sorted_filter. exact Hsord.
  - unfold accel_recs, bucket_rows. rewrite Hpg. apply sorted_filter. exact Hssrt.
Qed.

Definition ex_contents : list rec :=
  [ mkRec "k00" 30 0 0 (BMap true [("a", VInt 1); ("b", VInt 7)]);
    mkRec "k01" 10 0 0 (BMap true [("a", VFloat 4607182418800017408); ("b", VInt 9)]);
    mkRec "k02" 20 0 0 (BMap true [("a", VInt 2)]);
    mkRec "k03" 0 0 0 (BMap true [("a", VUint 1); ("b", VInt 8)]) ].
Definition ex_filter : group :=
  Grp false [mkLeg OpEq (CInt 64 1) "a" "one" [] []; mkLeg OpGt (CInt 64 6) "b" "" [] []] [] [].
Definition ex_req : req := mkReq 2 false 0 0 None None 0 [] [] ex_filter.
Definition ex_ord : list rec := [nth 1 ex_contents (mkRec "" 0 0 0 BOpaque); nth 2 ex_contents (mkRec "" 0 0 0 BOpaque);
                                 nth 0 ex_contents (mkRec "" 0 0 0 BOpaque)].
Definition ex_srt : list rec := [nth 1 ex_contents (mkRec "" 0 0 0 BOpaque); nth 0 ex_contents (mkRec "" 0 0 0 BOpaque)].

Example C08_routes_agree_example :
  plan_filter ex_filter <> PBypass /\ paged ex_req = false
  /\ accel_route scan_leg ex_contents ex_ord ex_srt ex_req = [("k01", ["one"]); ("k00", ["one"])]
  /\ scan_route scan_leg ex_ord ex_req (wrap ex_filter) = [("k01", ["one"]); ("k00", ["one"])].
Proof. vm_compute. repeat split. discriminate. Qed.

(* the hypotheses of C08_routes_agree_partial_unpaged hold for that example (no vacuous implication) *)
Example C08_routes_agree_unpaged_hyps_example :
  all_not_raw ex_contents
  /\ Permutation ex_ord (filter (eligible (qidx ex_req)) ex_contents)
  /\ StronglySorted (sortedR ex_req) ex_ord
  /\ Permutation ex_srt (bucket_unsorted ex_contents ex_req (hints_of (plan_filter (qfilter ex_req))))
  /\ StronglySorted (sortedR ex_req) ex_srt.
Proof.
  split; [|split; [|split; [|split]]].
  - intros r Hr. simpl in Hr. destruct Hr as [<-|[<-|[<-|[<-|[]]]]]; exact I.
  - vm_compute filter. apply Permutation_sym.
    apply (Permutation_cons_app [_; _] []).
    apply Permutation_refl.
  - unfold ex_ord, sortedR. repeat (constructor; try (vm_compute; reflexivity)).
  - vm_compute bucket_unsorted. apply perm_swap.
  - unfold ex_srt, sortedR. repeat (constructor; try (vm_compute; reflexivity)).
Qed.

(* open on the current tree: a msgpack body without the magic prefix *)
Theorem C08_routes_agree_refuted_raw_body :
  exists contents ord srt q,
    NoDup (map rkey contents) /\ incl ord contents /\
    accel_route scan_leg contents ord srt q <> scan_route scan_leg ord q (wrap (qfilter q)).
Proof.
  set (r0 := mkRec "k00" 0 0 0 (BMap false [("a", VInt 1)])).
  set (r1 := mkRec "k01" 0 0 0 (BMap true [("a", VInt 1)])).
  exists [r0; r1], [r0; r1], [r0; r1],
         (mkReq 0 false 0 0 None None 0 [] [] (Grp false [mkLeg OpEq (CInt 64 1) "a" "" [] []] [] [])).
  split; [|split].
  - repeat constructor; simpl; intuition discriminate.
  - apply incl_refl.
  - vm_compute. discriminate.
Qed.

(* paging after the indexed restriction, no attribute check, window applied to the key index *)
Definition accel_route_legacy (contents srt : list rec) (q : req) (hs : list hint) (resid : option group) : list row :=
  emit scan_leg q resid (page q srt).

Theorem C08_routes_agree_refuted_legacy_paging :
  exists contents ord srt q hs resid,
    plan_filter_legacy (qfilter q) = PAnd hs resid /\
    Permutation srt (candidates contents hs) /\
    accel_route_legacy contents srt q hs (Some resid) <> scan_route scan_leg ord q (wrap (qfilter q)).
Proof.
  set (r0 := mkRec "k00" 0 0 0 (BMap true [("a", VInt 0)])).
  set (r1 := mkRec "k01" 0 0 0 (BMap true [("a", VInt 1)])).
  set (r2 := mkRec "k02" 0 0 0 (BMap true [("a", VInt 1)])).
  exists [r0; r1; r2], [r0; r1; r2], [r1; r2],
         (mkReq 0 false 1 0 None None 0 [] [] (Grp false [mkLeg OpEq (CInt 64 1) "a" "" [] []] [] [])).
  do 2 eexists. split; [vm_compute; reflexivity|]. split; [apply Permutation_refl|].
  vm_compute. discriminate.
Qed.

(* The bucket's byKey map as a function; a Save notification sets the key's canonical value, a
   delete removes it.  BuildEquality starts from a snapshot of the swamp (a [bstate]);
   DrainPending replays the queued notifications in FIFO order ([bapply_all]). *)
Inductive bop := BSet (k : string) (v : ckey) | BDel (k : string).

Definition bstate := string -> option ckey.

Definition bapply (s : bstate) (o : bop) : bstate :=
  match o with
  | BSet k v => fun x => if String.eqb x k then Some v else s x
  | BDel k => fun x => if String.eqb x k then None else s x
  end.

Definition bapply_all (s : bstate) (ops : list bop) : bstate := fold_left bapply ops s.

(* what a replay does to one key: it overwrites it, or it leaves it as it was *)
Lemma bapply_all_key : forall ops k,
  (exists v, forall s, bapply_all s ops k = v) \/ (forall s, bapply_all s ops k = s k).
Proof.
  unfold bapply_all. induction ops as [|o t IH]; intro k; simpl; [right; reflexivity|].
  destruct (IH k) as [[v Hv]|Hid]; [left; exists v; intro s; apply Hv|].
  (* the rest leaves k alone: the first operation decides *)
  destruct o as [k' v|k']; simpl; destruct (String.eqb k k') eqn:E.
  - left. exists (Some v). intro s. rewrite Hid, E. reflexivity.
  - right. intro s. rewrite Hid, E. reflexivity.
  - left. exists None. intro s. rewrite Hid, E. reflexivity.
  - right. intro s. rewrite Hid, E. reflexivity.
Qed.

Lemma bapply_all_app : forall a b s, bapply_all s (a ++ b) = bapply_all (bapply_all s a) b.
Proof. intros. apply fold_left_app. Qed.

(* Incremental maintenance equals a fresh build, for every history and every position of the
   build in it: the swamp state is [c0] when the bucket is registered (buildInFlight = 1), the
   notifications [p1] arrive before the snapshot is taken (so they are both in the snapshot and
   in the pending queue), [p2] during the build (pending queue only), [p3] after DrainPending
   (applied directly).  The bucket then equals the bucket of a fresh build over the final state. *)
Theorem bucket_inv : forall (c0 : bstate) (p1 p2 p3 : list bop) (k : string),
  let snapshot := bapply_all c0 p1 in
  let bucket := bapply_all (bapply_all snapshot (p1 ++ p2)) p3 in
  let fresh := bapply_all c0 (p1 ++ p2 ++ p3) in
  bucket k = fresh k.
Proof.
  intros c0 p1 p2 p3 k. simpl. rewrite !bapply_all_app.
  assert (Hdep : forall ops s s', s k = s' k -> bapply_all s ops k = bapply_all s' ops k).
  { intros ops s s' E. destruct (bapply_all_key ops k) as [[v Hv]|Hid]; [rewrite !Hv | rewrite !Hid]; auto. }
  apply Hdep, Hdep.
  (* replaying p1 on its own result *)
  destruct (bapply_all_key p1 k) as [[v Hv]|Hid]; [rewrite !Hv | rewrite !Hid]; reflexivity.
Qed.

Example bucket_inv_example :
  let c0 : bstate := fun x => if String.eqb x "k1" then Some (KInt 1) else None in
  let p1 := [BDel "k1"; BSet "k2" (KInt 5)] in
  let p2 := [BSet "k1" (KStr "x")] in
  let p3 := [BDel "k2"] in
  let bucket := bapply_all (bapply_all (bapply_all c0 p1) (p1 ++ p2)) p3 in
  bucket "k1" = Some (KStr "x") /\ bucket "k2" = None.
Proof. split; vm_compute; reflexivity. Qed.
